(* Byte strings as lists of N, with the handful of string primitives the Go
   code uses (bytes.HasPrefix, bytes.Contains, bytes.IndexByte, bytes.Join,
   strings.Split ...), and the lemmas that say what they compute. *)
From Coq Require Export List NArith ZArith Bool Lia.
Export ListNotations.
Open Scope N_scope.

Definition byte := N.
Definition bytes := list N.

Fixpoint beqb (a b : bytes) : bool :=
  match a, b with
  | [], [] => true
  | x :: a', y :: b' => (x =? y) && beqb a' b'
  | _, _ => false
  end.

Lemma beqb_eq a b : beqb a b = true <-> a = b.
Proof.
  revert b; induction a as [|x a IH]; intros [|y b]; simpl; try (split; congruence).
  rewrite andb_true_iff, N.eqb_eq, IH. split; [intros [-> ->]; reflexivity | intros [= -> ->]; auto].
Qed.

Lemma beqb_refl a : beqb a a = true.
Proof. apply beqb_eq; reflexivity. Qed.

Lemma beqb_neq a b : beqb a b = false <-> a <> b.
Proof. rewrite <- beqb_eq. symmetry. apply not_true_iff_false. Qed.

Lemma beqb_spec a b : reflect (a = b) (beqb a b).
Proof. apply iff_reflect. symmetry. apply beqb_eq. Qed.

(* bytes.HasPrefix s p *)
Fixpoint has_prefix (p s : bytes) : bool :=
  match p, s with
  | [], _ => true
  | x :: p', y :: s' => (x =? y) && has_prefix p' s'
  | _ :: _, [] => false
  end.

Lemma has_prefix_spec p s : has_prefix p s = true <-> exists t, s = p ++ t.
Proof.
  revert s; induction p as [|x p IH]; intros s; simpl.
  - split; [intros _; exists s; reflexivity | reflexivity].
  - destruct s as [|y s].
    + split; [discriminate | intros [t Ht]; discriminate].
    + rewrite andb_true_iff, N.eqb_eq, IH. split.
      * intros [-> [t ->]]. exists t. reflexivity.
      * intros [t Ht]. inversion Ht; subst. split; [reflexivity | exists t; reflexivity].
Qed.

Lemma has_prefix_nil s : has_prefix [] s = true.
Proof. reflexivity. Qed.

Lemma has_prefix_trans p q s : has_prefix p q = true -> has_prefix q s = true -> has_prefix p s = true.
Proof.
  rewrite !has_prefix_spec. intros [t ->] [u ->]. exists (t ++ u). symmetry. apply app_assoc.
Qed.

Lemma has_prefix_app p q s :
  has_prefix p s = true -> has_prefix q (skipn (length p) s) = true -> has_prefix (p ++ q) s = true.
Proof.
  rewrite !has_prefix_spec. intros [t ->]. rewrite skipn_app, skipn_all, Nat.sub_diag. cbn [skipn app].
  intros [u ->]. exists u. apply app_assoc.
Qed.

(* bytes.Contains s sub *)
Fixpoint contains (sub s : bytes) : bool :=
  has_prefix sub s ||
  match s with
  | [] => false
  | _ :: s' => contains sub s'
  end.

Lemma contains_spec sub s : contains sub s = true <-> exists a b, s = a ++ sub ++ b.
Proof.
  induction s as [|y s IH]; cbn [contains]; rewrite orb_true_iff, has_prefix_spec.
  - split.
    + intros [[t Ht]|H]; [exists [], t; exact Ht | discriminate].
    + intros [[|z a] [b H]]; [left; exists b; exact H | discriminate].
  - rewrite IH. split.
    + intros [[t Ht]|[a [b ->]]]; [exists [], t; exact Ht | exists (y :: a), b; reflexivity].
    + intros [[|z a] [b H]]; [left; exists b; exact H | right; injection H as _ ->; exists a, b; reflexivity].
Qed.

(* bytes.IndexByte: position of the first c, None if absent *)
Fixpoint index_byte (c : N) (s : bytes) : option nat :=
  match s with
  | [] => None
  | x :: s' => if x =? c then Some O else option_map S (index_byte c s')
  end.

(* split at the first c: (before, Some after) or (s, None) *)
Fixpoint cut (c : N) (s : bytes) : bytes * option bytes :=
  match s with
  | [] => ([], None)
  | x :: s' => if x =? c then ([], Some s')
               else let '(a, b) := cut c s' in (x :: a, b)
  end.

Lemma cut_spec c s a o :
  cut c s = (a, o) -> ~ In c a /\ s = a ++ match o with Some b => c :: b | None => [] end.
Proof.
  revert a; induction s as [|x s IH]; simpl; intros a H.
  - injection H as <- <-. split; [intros [] | reflexivity].
  - destruct (N.eqb_spec x c) as [->|Hx].
    + injection H as <- <-. split; [intros [] | reflexivity].
    + destruct (cut c s) as [a' o']. injection H as <- <-. destruct (IH a' eq_refl) as [Hn ->].
      split; [|reflexivity]. intros [E|Hi]; [exact (Hx E) | exact (Hn Hi)].
Qed.

Lemma notin_cons (c x : N) s : ~ In c (x :: s) -> (x =? c) = false /\ ~ In c s.
Proof.
  intros H. split; [apply N.eqb_neq; intros ->; apply H; left; reflexivity|intros Hi; apply H; right; exact Hi].
Qed.

Lemma cut_app c l rest : ~ In c l -> cut c (l ++ c :: rest) = (l, Some rest).
Proof.
  induction l as [|x l IH]; intros H; cbn [app cut]; [rewrite N.eqb_refl; reflexivity|].
  apply notin_cons in H as [-> H]. rewrite (IH H). reflexivity.
Qed.

(* strings.Split s sep for a single-byte separator (never empty result) *)
Fixpoint split_on (c : N) (s : bytes) : list bytes :=
  match s with
  | [] => [[]]
  | x :: s' =>
      if x =? c then [] :: split_on c s'
      else match split_on c s' with
           | [] => [[x]]   (* unreachable *)
           | h :: t => (x :: h) :: t
           end
  end.

Fixpoint count_byte (c : N) (s : bytes) : nat :=
  match s with
  | [] => O
  | x :: s' => ((if N.eqb x c then 1 else 0) + count_byte c s')%nat
  end.

(* bytes.Join *)
Fixpoint join (sep : bytes) (l : list bytes) : bytes :=
  match l with
  | [] => []
  | [x] => x
  | x :: l' => x ++ sep ++ join sep l'
  end.

Lemma split_on_nosep c s : ~ In c s -> split_on c s = [s].
Proof.
  induction s as [|x s IH]; intros H; cbn [split_on]; [reflexivity|].
  apply notin_cons in H as [-> H]. rewrite (IH H). reflexivity.
Qed.

Lemma split_on_nonempty c s : split_on c s <> [].
Proof.
  induction s as [|x s IH]; cbn [split_on]; [discriminate|]. destruct (x =? c); [discriminate|].
  destruct (split_on c s); discriminate.
Qed.

Lemma split_on_app c a rest : split_on c (a ++ c :: rest) = split_on c a ++ split_on c rest.
Proof.
  induction a as [|x a IH]; cbn [app split_on]; [rewrite N.eqb_refl; reflexivity|]. rewrite IH.
  destruct (x =? c); [reflexivity|]. pose proof (split_on_nonempty c a) as H.
  destruct (split_on c a); [contradiction|reflexivity].
Qed.

Lemma split_on_join c l : l <> [] -> split_on c (join [c] l) = flat_map (split_on c) l.
Proof.
  induction l as [|x [|y l] IH]; intros Hne; [contradiction| |].
  - cbn [join flat_map]. rewrite app_nil_r. reflexivity.
  - change (join [c] (x :: y :: l)) with (x ++ c :: join [c] (y :: l)).
    rewrite split_on_app, IH by discriminate. reflexivity.
Qed.

(* lexicographic order on byte strings = Go's string comparison *)
Fixpoint bleb (a b : bytes) : bool :=
  match a, b with
  | [], _ => true
  | _ :: _, [] => false
  | x :: a', y :: b' => (x <? y) || ((x =? y) && bleb a' b')
  end.

Lemma bleb_cons x a y b :
  bleb (x :: a) (y :: b) = match x ?= y with Lt => true | Eq => bleb a b | Gt => false end.
Proof. simpl. unfold N.ltb. rewrite N.eqb_compare. destruct (x ?= y); reflexivity. Qed.

Lemma bleb_total a b : bleb a b = true \/ bleb b a = true.
Proof.
  revert b; induction a as [|x a IH]; intros [|y b]; auto.
  rewrite !bleb_cons, (N.compare_antisym x y). destruct (x ?= y); simpl; auto.
Qed.

Lemma bleb_refl a : bleb a a = true.
Proof. destruct (bleb_total a a); assumption. Qed.

Lemma bleb_antisym a b : bleb a b = true -> bleb b a = true -> a = b.
Proof.
  revert b; induction a as [|x a IH]; intros [|y b]; try discriminate; [reflexivity|].
  rewrite !bleb_cons, (N.compare_antisym x y).
  destruct (N.compare_spec x y) as [->| |]; try discriminate.
  intros Ha Hb. f_equal. apply IH; assumption.
Qed.

Lemma bleb_trans a b c : bleb a b = true -> bleb b c = true -> bleb a c = true.
Proof.
  revert b c; induction a as [|x a IH]; intros [|y b] [|z c]; try discriminate; try reflexivity.
  rewrite !bleb_cons.
  destruct (N.compare_spec x y) as [->|Lxy|]; [| |discriminate];
    destruct (N.compare_spec y z) as [->|Lyz|]; try discriminate.
  - apply IH.
  - reflexivity.
  - intros _ _. rewrite (proj2 (N.compare_lt_iff x z) Lxy). reflexivity.
  - intros _ _. rewrite (proj2 (N.compare_lt_iff x z) (N.lt_trans _ _ _ Lxy Lyz)). reflexivity.
Qed.

Definition ch (n : N) : N := n.
Definition SP : N := 32.
Definition NL : N := 10.
