From Coq Require Export List Arith Lia.
Export ListNotations.

Lemma In_firstn {A} n (l : list A) x : In x (firstn n l) -> In x l.
Proof. revert l; induction n; intros [|y l]; simpl; try tauto. intros [->|H]; auto. Qed.

Lemma In_skipn {A} n (l : list A) x : In x (skipn n l) -> In x l.
Proof. revert l; induction n; intros [|y l]; simpl; try tauto. intros H; right; auto. Qed.

Lemma NoDup_app_intro {A} (l1 l2 : list A) :
  NoDup l1 -> NoDup l2 -> (forall x, In x l1 -> In x l2 -> False) -> NoDup (l1 ++ l2).
Proof.
  induction l1 as [|a l1 IH]; simpl; intros H1 H2 H; [exact H2|].
  inversion H1; subst. constructor.
  - intros Hin. apply in_app_or in Hin as [Hin|Hin]; [contradiction|]. eapply H; [left; reflexivity|exact Hin].
  - apply IH; [assumption|assumption|]. intros x Hx1 Hx2. eapply H; [right; exact Hx1|exact Hx2].
Qed.

Lemma NoDup_app_singleton {A} (l : list A) a : NoDup l -> ~ In a l -> NoDup (l ++ [a]).
Proof.
  intros H Hn. apply NoDup_app_intro; [exact H|constructor; [intros []|constructor]|].
  intros x Hx [<-|[]]. contradiction.
Qed.

Lemma firstn_add_skipn {A} (l : list A) a b : firstn (a + b) l = firstn a l ++ firstn b (skipn a l).
Proof.
  revert l; induction a as [|a IH]; intros l; simpl; [reflexivity|].
  destruct l as [|x l]; [destruct b; reflexivity|]. simpl. f_equal. apply IH.
Qed.

Lemma filter_all {A} (f : A -> bool) l : (forall x, In x l -> f x = true) -> filter f l = l.
Proof.
  induction l as [|x l IH]; simpl; intros H; [reflexivity|].
  rewrite (H x (or_introl eq_refl)), IH; [reflexivity|]. intros y Hy. apply H. right; exact Hy.
Qed.

Lemma filter_none {A} (f : A -> bool) l : (forall x, In x l -> f x = false) -> filter f l = [].
Proof.
  induction l as [|x l IH]; simpl; intros H; [reflexivity|].
  rewrite (H x (or_introl eq_refl)). apply IH. intros y Hy. apply H. right; exact Hy.
Qed.

Lemma last_cons {A} (a : A) l d : last (a :: l) d = last l a.
Proof.
  revert a d. induction l as [|b l IH]; intros a d; [reflexivity|].
  change (last (b :: l) d = last (b :: l) a). rewrite !IH. reflexivity.
Qed.

Lemma skipn_skipn' {A} (l : list A) : forall a b, skipn a (skipn b l) = skipn (b + a) l.
Proof.
  induction l as [|x l IH]; intros a b.
  - rewrite !skipn_nil. reflexivity.
  - destruct b; [reflexivity|]. cbn [skipn Nat.add]. apply IH.
Qed.

Lemma find_map {A B} (f : A -> B) (g : B -> bool) l :
  find g (map f l) = option_map f (find (fun x => g (f x)) l).
Proof. induction l as [|x l IH]; simpl; [reflexivity|]. destruct (g (f x)); [reflexivity|exact IH]. Qed.

Lemma find_filter {A} (f : A -> bool) l : find f l = hd_error (filter f l).
Proof. induction l as [|x l IH]; simpl; [reflexivity|]. destruct (f x); [reflexivity|exact IH]. Qed.

Lemma In_remove_nth {A} (l : list A) i x :
  In x l -> nth_error l i = Some x \/ In x (firstn i l ++ skipn (S i) l).
Proof.
  revert i; induction l as [|y l IH]; intros i; [intros []|].
  destruct i as [|i]; simpl; intros [->|H]; auto. destruct (IH i H); auto.
Qed.

(* the longest initial part of l on which p holds *)
Lemma span_split {A} (p : A -> bool) l :
  exists a b, l = a ++ b /\ forallb p a = true /\ match b with [] => True | c :: _ => p c = false end.
Proof.
  induction l as [|c l (a & b & -> & Ha & Hb)]; [exists [], []; auto|].
  destruct (p c) eqn:E; [exists (c :: a), b; simpl; rewrite E; auto | exists [], (c :: a ++ b); auto].
Qed.

Lemma skipn_app_le {A} (l1 l2 : list A) n : (n <= length l1)%nat -> skipn n (l1 ++ l2) = skipn n l1 ++ l2.
Proof. intros H. rewrite skipn_app. replace (n - length l1)%nat with 0%nat by lia. reflexivity. Qed.

Lemma firstn_app_le {A} (l1 l2 : list A) n : (n <= length l1)%nat -> firstn n (l1 ++ l2) = firstn n l1.
Proof. intros H. rewrite firstn_app. replace (n - length l1)%nat with 0%nat by lia. cbn [firstn]. apply app_nil_r. Qed.

Lemma skipn_next {A} (l : list A) n x r : skipn n l = x :: r -> skipn (S n) l = r.
Proof. intros H. replace (S n) with (n + 1)%nat by lia. rewrite <- skipn_skipn', H. reflexivity. Qed.

Lemma nth_error_app_one {A} (l : list A) x i y :
  nth_error (l ++ [x]) i = Some y -> ((i < length l)%nat /\ nth_error l i = Some y) \/ (i = length l /\ y = x).
Proof.
  intros H. destruct (Nat.lt_ge_cases i (length l)) as [L|L].
  - left. split; [exact L|]. rewrite nth_error_app1 in H by exact L. exact H.
  - right. rewrite nth_error_app2 in H by exact L.
    destruct (i - length l)%nat as [|j] eqn:E; cbn in H.
    + inversion H. split; [lia | reflexivity].
    + destruct j; discriminate.
Qed.

Lemma firstn_skipn_grow {A} (E x : list A) sr sw :
  (sw <= length E)%nat -> firstn (sw - sr) (skipn sr (E ++ x)) = firstn (sw - sr) (skipn sr E).
Proof.
  intros H. destruct (Nat.le_gt_cases sr (length E)) as [L|L].
  - rewrite skipn_app_le, firstn_app_le; [reflexivity | rewrite skipn_length |]; lia.
  - replace (sw - sr)%nat with 0%nat by lia. reflexivity.
Qed.
