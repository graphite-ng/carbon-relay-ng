(* Boolean total orders, lexicographic products, insertion sort, and the
   uniqueness of sorted permutations (what makes a sorted ring a function of
   the *set* of its entries). *)
From CRNG Require Import Base.Bytes.
From Coq Require Import Permutation.

Section Order.
  Context {A : Type} (le : A -> A -> bool).

  Record total_order : Prop := {
    to_total : forall a b, le a b = true \/ le b a = true;
    to_trans : forall a b c, le a b = true -> le b c = true -> le a c = true;
    to_antisym : forall a b, le a b = true -> le b a = true -> a = b }.

  Fixpoint insert (x : A) (l : list A) : list A :=
    match l with
    | [] => [x]
    | y :: l' => if le x y then x :: l else y :: insert x l'
    end.

  Definition isort (l : list A) : list A := fold_right insert [] l.

  Inductive sorted : list A -> Prop :=
  | sorted_nil : sorted []
  | sorted_cons x l : (forall y, In y l -> le x y = true) -> sorted l -> sorted (x :: l).

  Lemma insert_perm x l : Permutation (x :: l) (insert x l).
  Proof.
    induction l as [|y l IH]; simpl; [reflexivity|].
    destruct (le x y); [reflexivity|].
    rewrite perm_swap. constructor. exact IH.
  Qed.

  Lemma isort_perm l : Permutation l (isort l).
  Proof.
    induction l as [|x l IH]; simpl; [reflexivity|].
    rewrite <- insert_perm. constructor. exact IH.
  Qed.

  Lemma insert_below x l : (forall y, In y l -> le x y = true) -> insert x l = x :: l.
  Proof.
    destruct l as [|y l]; simpl; intros H; [reflexivity|]. rewrite (H y (or_introl eq_refl)). reflexivity.
  Qed.

  (* insertion sort needs a total and transitive comparison only *)
  Lemma insert_sorted :
    (forall a b, le a b = true \/ le b a = true) ->
    (forall a b c, le a b = true -> le b c = true -> le a c = true) ->
    forall x l, sorted l -> sorted (insert x l).
  Proof.
    intros total trans x l. induction 1 as [|y l Hy Hs IH]; simpl.
    - constructor; [intros ? []|constructor].
    - destruct (le x y) eqn:E.
      + constructor; [|constructor; assumption].
        intros z [<-|Hz]; [exact E|]. eapply trans; eauto.
      + constructor; [|exact IH].
        intros z Hz. apply (Permutation_in _ (Permutation_sym (insert_perm x l))) in Hz.
        destruct Hz as [<-|Hz]; [|auto].
        destruct (total x y) as [H|H]; [congruence|exact H].
  Qed.

  Lemma isort_sorted :
    (forall a b, le a b = true \/ le b a = true) ->
    (forall a b c, le a b = true -> le b c = true -> le a c = true) ->
    forall l, sorted (isort l).
  Proof. intros total trans l. induction l; simpl; [constructor | apply insert_sorted; assumption]. Qed.

  Hypothesis TO : total_order.

  Lemma isort_sorted_to l : sorted (isort l).
  Proof. apply isort_sorted; [exact (to_total TO) | exact (to_trans TO)]. Qed.

  Lemma sorted_hd_min x l y : sorted (x :: l) -> In y (x :: l) -> le x y = true.
  Proof.
    intros H [<-|Hy]; inversion H; subst; auto.
    destruct (to_total TO x x); assumption.
  Qed.

  Lemma sorted_perm_eq l1 l2 : sorted l1 -> sorted l2 -> Permutation l1 l2 -> l1 = l2.
  Proof.
    revert l2; induction l1 as [|x l1 IH]; intros l2 H1 H2 P.
    - apply Permutation_nil in P. subst. reflexivity.
    - destruct l2 as [|y l2]; [apply Permutation_sym, Permutation_nil in P; discriminate|].
      (* each head is least in its own list and occurs in the other *)
      assert (x = y) as ->.
      { apply (to_antisym TO).
        - apply (sorted_hd_min x l1 y H1), (Permutation_in _ (Permutation_sym P)). left; reflexivity.
        - apply (sorted_hd_min y l2 x H2), (Permutation_in _ P). left; reflexivity. }
      inversion H1; inversion H2; subst. f_equal. apply IH; [assumption|assumption|].
      eapply Permutation_cons_inv; exact P.
  Qed.

  Lemma isort_perm_invariant l1 l2 : Permutation l1 l2 -> isort l1 = isort l2.
  Proof.
    intros P. apply sorted_perm_eq; try apply isort_sorted_to.
    rewrite <- (isort_perm l1), <- (isort_perm l2). exact P.
  Qed.

  Lemma sorted_filter f l : sorted l -> sorted (filter f l).
  Proof.
    induction 1 as [|x l Hx Hs IH]; simpl; [constructor|].
    destruct (f x); [|exact IH].
    constructor; [|exact IH]. intros y Hy. apply filter_In in Hy as [Hy _]. auto.
  Qed.
End Order.

Arguments sorted {A} le l.

Lemma find_sorted {A} (le : A -> A -> bool) p l x :
  sorted le l -> find p l = Some x -> forall y, In y l -> p y = true -> y = x \/ le x y = true.
Proof.
  induction 1 as [|a l Ha Hs IH]; cbn [find]; [discriminate|]. destruct (p a) eqn:E.
  - intros H y [<-|Hy] _; inversion H; subst; auto.
  - intros H y [<-|Hy] Hp; [congruence | exact (IH H y Hy Hp)].
Qed.

Lemma map_insert {A B} (leA : A -> A -> bool) (leB : B -> B -> bool) (f : A -> B) :
  (forall a b, leA a b = leB (f a) (f b)) ->
  forall x l, map f (insert leA x l) = insert leB (f x) (map f l).
Proof.
  intros H x l. induction l as [|y l IH]; simpl; [reflexivity|].
  rewrite <- H. destruct (leA x y); simpl; [reflexivity|]. f_equal. exact IH.
Qed.

Lemma map_isort {A B} (leA : A -> A -> bool) (leB : B -> B -> bool) (f : A -> B) :
  (forall a b, leA a b = leB (f a) (f b)) -> forall l, map f (isort leA l) = isort leB (map f l).
Proof.
  intros H l. induction l as [|x l IH]; simpl; [reflexivity|]. rewrite (map_insert _ _ _ H), IH. reflexivity.
Qed.

Definition lex_le {A B} (leA : A -> A -> bool) (leB : B -> B -> bool) (x y : A * B) : bool :=
  if leA (fst x) (fst y) then (if leA (fst y) (fst x) then leB (snd x) (snd y) else true) else false.

Lemma lex_total_order {A B} (leA : A -> A -> bool) (leB : B -> B -> bool) :
  total_order leA -> total_order leB -> total_order (lex_le leA leB).
Proof.
  intros [tA rA aA] [tB rB aB]. split.
  - intros [a1 b1] [a2 b2]. unfold lex_le; simpl.
    destruct (leA a1 a2) eqn:E1, (leA a2 a1) eqn:E2; auto.
    destruct (tA a1 a2); congruence.
  - intros [a1 b1] [a2 b2] [a3 b3]. unfold lex_le; simpl.
    destruct (leA a1 a2) eqn:E12; [|discriminate].
    destruct (leA a2 a3) eqn:E23; [|intros _; discriminate].
    rewrite (rA _ _ _ E12 E23).
    destruct (leA a3 a1) eqn:E31; [|intros; reflexivity].
    assert (E32: leA a3 a2 = true) by (eapply rA; eauto).
    assert (E21: leA a2 a1 = true) by (eapply rA; eauto).
    rewrite E21, E32. apply rB.
  - intros [a1 b1] [a2 b2]. unfold lex_le; simpl.
    destruct (leA a1 a2) eqn:E1; [|discriminate].
    destruct (leA a2 a1) eqn:E2; [|intros _; discriminate].
    intros H1 H2. f_equal; auto.
Qed.

Lemma N_leb_total_order : total_order N.leb.
Proof.
  split; intros.
  - destruct (N.leb_spec a b), (N.leb_spec b a); auto; lia.
  - apply N.leb_le in H, H0. apply N.leb_le. lia.
  - apply N.leb_le in H, H0. lia.
Qed.

Lemma bleb_total_order : total_order bleb.
Proof. split; [apply bleb_total | apply bleb_trans | apply bleb_antisym]. Qed.
