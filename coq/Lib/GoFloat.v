(* binary64 values for executing the aggregation model: Coq's primitive floats
   (kernel primitives, IEEE 754 binary64, round-to-nearest-even), conversion
   from the bit pattern the harness reports, and Go's "%f" (six decimals,
   correctly rounded on the exact value, as strconv does). *)
From Coq Require Import Floats.
From CRNG Require Import Base.Bytes Base.Decimal.

Definition float_of_bits (b : Z) : float :=
  let sign := Z.odd (Z.shiftr b 63) in
  let ex := Z.land (Z.shiftr b 52) 2047 in
  let man := Z.land b 4503599627370495 in
  if (ex =? 0)%Z then
    match man with
    | Zpos p => SF2Prim (S754_finite sign p (-1074))
    | _ => SF2Prim (S754_zero sign)
    end
  else if (ex =? 2047)%Z then
    if (man =? 0)%Z then SF2Prim (S754_infinity sign) else nan
  else
    match (man + 4503599627370496)%Z with
    | Zpos p => SF2Prim (S754_finite sign p (ex - 1075))
    | _ => nan
    end.

(* |x| * 10^6 rounded half-even to an integer, for finite x = m * 2^e *)
Definition scaled6 (m : positive) (e : Z) : Z :=
  let n := (Zpos m * 1000000)%Z in
  if (0 <=? e)%Z then (n * 2 ^ e)%Z
  else
    let d := (2 ^ (- e))%Z in
    let q := (n / d)%Z in
    let r := (n mod d)%Z in
    if (2 * r <? d)%Z then q
    else if (d <? 2 * r)%Z then (q + 1)%Z
    else if Z.even q then q else (q + 1)%Z.

Fixpoint pad6 (s : bytes) (n : nat) : bytes :=
  match n with O => s | S n' => if Nat.ltb (length s) 6 then pad6 (48%N :: s) n' else s end.

Definition format_f6 (x : float) : bytes :=
  match Prim2SF x with
  | S754_nan => [78; 97; 78]%N
  | S754_infinity s => (if s then [45; 73; 110; 102] else [43; 73; 110; 102])%N
  | S754_zero s => ((if s then [45] else []) ++ [48; 46; 48; 48; 48; 48; 48; 48])%N
  | S754_finite s m e =>
      let v := scaled6 m e in
      ((if s then [45] else []) ++ Z_to_dec (v / 1000000) ++ [46] ++ pad6 (Z_to_dec (v mod 1000000)) 6)%N
  end.

(* |x| rounded half-even to an integer, for finite x = m * 2^e; Go's "%.0f" *)
Definition scaled0 (m : positive) (e : Z) : Z :=
  if (0 <=? e)%Z then (Zpos m * 2 ^ e)%Z
  else
    let d := (2 ^ (- e))%Z in
    let q := (Zpos m / d)%Z in
    let r := (Zpos m mod d)%Z in
    if (2 * r <? d)%Z then q
    else if (d <? 2 * r)%Z then (q + 1)%Z
    else if Z.even q then q else (q + 1)%Z.

Definition format_f0 (x : float) : bytes :=
  match Prim2SF x with
  | S754_nan => [78; 97; 78]%N
  | S754_infinity s => (if s then [45; 73; 110; 102] else [43; 73; 110; 102])%N
  | S754_zero s => ((if s then [45] else []) ++ [48])%N
  | S754_finite s m e => ((if s then [45] else []) ++ Z_to_dec (scaled0 m e))%N
  end.

Example fmt0_1 : format_f0 (float_of_bits 4612811918334230528) = [50]%N.  (* 2.5 -> "2" *)
Proof. vm_compute. reflexivity. Qed.
Example fmt0_2 : format_f0 (float_of_bits 4615063718147915776) = [52]%N.  (* 3.5 -> "4" *)
Proof. vm_compute. reflexivity. Qed.

Definition float_of_N (n : N) : float := of_uint63 (Uint63.of_Z (Z.of_N n)).

Example fmt1 : format_f6 (float_of_bits 4609434218613702656) = [49;46;53;48;48;48;48;48]%N.  (* 1.5 *)
Proof. vm_compute. reflexivity. Qed.
Example fmt2 : format_f6 (PrimFloat.div (float_of_N 5) (float_of_N 3)) = [49;46;54;54;54;54;54;55]%N.
Proof. vm_compute. reflexivity. Qed.
Example fmt3 : format_f6 (PrimFloat.sqrt (float_of_N 2)) = [49;46;52;49;52;50;49;52]%N.
Proof. vm_compute. reflexivity. Qed.
Example fmt4 : format_f6 (PrimFloat.opp (PrimFloat.div (float_of_N 1) (float_of_N 4000000))) = [45;48;46;48;48;48;48;48;48]%N.
Proof. vm_compute. reflexivity. Qed.
