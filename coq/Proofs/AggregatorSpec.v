(* C10: the aggregator refines the obvious specification "every open point is
   appended to the list of its (bucket, key); a flush reports the function of
   that list". *)
From CRNG Require Import Base.ListX Base.Bytes Model.Aggregator Proofs.AggregatorProofs.

(* a map g from one per-key state type to another that commutes with new, add and flush carries over to whole runs *)
Section Sim.
  Variable F P1 P2 : Type.
  Variables (new1 : F -> N -> P1) (add1 : P1 -> F -> N -> P1) (fl1 : P1 -> list (bytes * F)).
  Variables (new2 : F -> N -> P2) (add2 : P2 -> F -> N -> P2) (fl2 : P2 -> list (bytes * F)).
  Variable g : P2 -> P1.
  Hypothesis g_new : forall v t, g (new2 v t) = new1 v t.
  Hypothesis g_add : forall p v t, g (add2 p v t) = add1 (g p) v t.
  Hypothesis g_flush : forall p, fl2 p = fl1 (g p).

  Definition gk (ks : list (bytes * P2)) : list (bytes * P1) := map (fun kp => (fst kp, g (snd kp))) ks.
  Definition gb (bs : list (bucket P2)) : list (bucket P1) := map (fun b => (fst b, gk (snd b))) bs.
  Definition gs (st : astate P2) : astate P1 := {| a_buckets := gb (a_buckets P2 st); a_too_old := a_too_old P2 st |}.

  Lemma gk_key_update ks k v t :
    key_update P1 (gk ks) k (fun p => add1 p v t) = option_map gk (key_update P2 ks k (fun p => add2 p v t)).
  Proof.
    induction ks as [|[k0 p0] ks IH]; simpl; [reflexivity|].
    destruct (beqb k k0); simpl; [rewrite g_add; reflexivity|].
    rewrite IH. destruct (key_update P2 ks k _); reflexivity.
  Qed.

  Lemma gb_keys_or_nil bs q : keys_or_nil P1 (gb bs) q = gk (keys_or_nil P2 bs q).
  Proof.
    unfold keys_or_nil. induction bs as [|[q0 ks0] bs IH]; simpl; [reflexivity|].
    destruct (q =? q0); [reflexivity | exact IH].
  Qed.

  Lemma gb_with_bucket bs q f1 f2 :
    (forall ks, f1 (gk ks) = gk (f2 ks)) -> with_bucket P1 (gb bs) q f1 = gb (with_bucket P2 bs q f2).
  Proof.
    intros Hf. induction bs as [|[q0 ks0] bs IH]; simpl.
    - rewrite <- Hf. reflexivity.
    - destruct (q =? q0); simpl; [rewrite Hf; reflexivity|].
      destruct (q <? q0); simpl; [rewrite <- Hf; reflexivity|]. rewrite IH. reflexivity.
  Qed.

  Lemma gs_add_or_create wait st key ts q v now :
    add_or_create F P1 new1 add1 wait (gs st) key ts q v now = gs (add_or_create F P2 new2 add2 wait st key ts q v now).
  Proof.
    rewrite !add_or_create_eq. unfold gs. simpl. rewrite gb_keys_or_nil, gk_key_update.
    destruct (key_update P2 _ key _) as [ks'|]; simpl.
    - f_equal. apply gb_with_bucket. reflexivity.
    - destruct (usub now wait <? q); simpl; f_equal; apply gb_with_bucket.
      + intros ks. unfold gk. rewrite map_app. simpl. rewrite g_new. reflexivity.
      + reflexivity.
  Qed.

  Lemma gb_split_flush bs c :
    split_flush P1 (gb bs) c = (gb (fst (split_flush P2 bs c)), gb (snd (split_flush P2 bs c))).
  Proof.
    induction bs as [|[q ks] bs IH]; simpl; [reflexivity|].
    destruct (c <? q); simpl; [reflexivity|]. rewrite IH. destruct (split_flush P2 bs c). reflexivity.
  Qed.

  Lemma emit_gk ks : emit_bucket F P1 fl1 (gk ks) = emit_bucket F P2 fl2 ks.
  Proof.
    unfold emit_bucket, gk. rewrite flat_map_concat_map, map_map, <- flat_map_concat_map.
    apply flat_map_ext. intros [k p]. simpl. rewrite g_flush. reflexivity.
  Qed.

  Theorem sim_step interval wait st e :
    astep F P1 new1 add1 fl1 interval wait (gs st) e =
    (gs (fst (astep F P2 new2 add2 fl2 interval wait st e)), snd (astep F P2 new2 add2 fl2 interval wait st e)).
  Proof.
    destruct e as [key v ts now|t]; simpl.
    - rewrite gs_add_or_create. reflexivity.
    - unfold flush. rewrite gb_split_flush. destruct (split_flush P2 (a_buckets P2 st) (cutoff_of wait t)) as [fl rest]. simpl.
      f_equal. unfold gb. rewrite map_map. apply map_ext. intros [q ks]. simpl. rewrite emit_gk. reflexivity.
  Qed.

  Fixpoint run1 (interval wait : N) (st : astate P1) (evs : list (aevent F)) : list (list (N * list (bytes * F))) :=
    match evs with [] => [] | e :: r => let '(st', o) := astep F P1 new1 add1 fl1 interval wait st e in o :: run1 interval wait st' r end.
  Fixpoint run2 (interval wait : N) (st : astate P2) (evs : list (aevent F)) : list (list (N * list (bytes * F))) :=
    match evs with [] => [] | e :: r => let '(st', o) := astep F P2 new2 add2 fl2 interval wait st e in o :: run2 interval wait st' r end.

  Theorem sim_run interval wait evs : forall st, run1 interval wait (gs st) evs = run2 interval wait st evs.
  Proof.
    induction evs as [|e r IH]; intros st; simpl; [reflexivity|].
    rewrite sim_step. destruct (astep F P2 new2 add2 fl2 interval wait st e) as [st' o]. simpl. rewrite IH. reflexivity.
  Qed.
End Sim.

Section Spec.
  Variable F : Type.
  Variables (fadd fsub fmul fdiv : F -> F -> F) (fsqrt : F -> F) (flt : F -> F -> bool) (of_N : N -> F).
  Variable f : fn.

  Notation proc := (proc F).
  Notation proc_new := (proc_new F).
  Notation proc_add := (proc_add F fadd flt).
  Notation proc_flush := (proc_flush F fadd fsub fmul fdiv fsqrt flt of_N).

  (* a non-empty list of (value, timestamp), in arrival order *)
  Definition contrib : Type := (F * N) * list (F * N).
  Definition c_new (v : F) (t : N) : contrib := ((v, t), []).
  Definition c_add (c : contrib) (v : F) (t : N) : contrib := (fst c, snd c ++ [(v, t)]).
  Definition c_all (c : contrib) : list (F * N) := fst c :: snd c.

  Definition proc_of (c : contrib) : proc :=
    fold_left (fun p vt => proc_add p (fst vt) (snd vt)) (snd c) (proc_new f (fst (fst c)) (snd (fst c))).

  Lemma proc_of_new v t : proc_of (c_new v t) = proc_new f v t.
  Proof. reflexivity. Qed.
  Lemma proc_of_add c v t : proc_of (c_add c v t) = proc_add (proc_of c) v t.
  Proof. unfold proc_of, c_add. simpl. rewrite fold_left_app. reflexivity. Qed.

  Definition c_flush (c : contrib) : list (bytes * F) := proc_flush (proc_of c).

  (* the real aggregator and the specification aggregator produce the same output on every history *)
  Theorem refines_spec interval wait evs :
    run1 F proc (proc_new f) proc_add proc_flush interval wait (a_init proc) evs =
    run2 F contrib c_new c_add c_flush interval wait (a_init contrib) evs.
  Proof.
    apply (sim_run F proc contrib (proc_new f) proc_add proc_flush c_new c_add c_flush proc_of
                   proc_of_new proc_of_add (fun p => eq_refl) interval wait evs (a_init contrib)).
  Qed.

  (* what each function reports, as a plain fold over the contributed values *)
  Definition vals (c : contrib) : list F := map fst (c_all c).
  Definition fsum (c : contrib) : F := fold_left fadd (map fst (snd c)) (fst (fst c)).
  Definition fmax_ (c : contrib) : F := fold_left (fun m v => if flt m v then v else m) (map fst (snd c)) (fst (fst c)).
  Definition fmin_ (c : contrib) : F := fold_left (fun m v => if flt v m then v else m) (map fst (snd c)) (fst (fst c)).
  Definition flast (c : contrib) : F := last (vals c) (fst (fst c)).
  Definition count_ (c : contrib) : N := N.of_nat (length (c_all c)).
  (* oldest / newest by timestamp, the first of equal timestamps wins *)
  Definition oldest (c : contrib) : F * N := fold_left (fun o vt => if snd vt <? snd o then vt else o) (snd c) (fst c).
  Definition newest (c : contrib) : F * N := fold_left (fun o vt => if snd o <? snd vt then vt else o) (snd c) (fst c).

  Lemma fold_pair {A B C} (fa : A -> C -> A) (fb : B -> C -> B) l a b :
    fold_left (fun ab c => (fa (fst ab) c, fb (snd ab) c)) l (a, b) = (fold_left fa l a, fold_left fb l b).
  Proof. revert a b; induction l as [|x l IH]; intros a b; simpl; [reflexivity|apply IH]. Qed.

  Lemma fold_proc_add l : forall p,
    fold_left (fun p vt => proc_add p (fst vt) (snd vt)) l p =
    let vs := map fst l in
    let fmax := fold_left (fun m v => if flt m v then v else m) vs in
    let fmin := fold_left (fun m v => if flt v m then v else m) vs in
    match p with
    | PAvg _ s c => PAvg F (fold_left fadd vs s) (c + N.of_nat (length l))
    | PCount _ c => PCount F (c + N.of_nat (length l))
    | PDelta _ mx mn => PDelta F (fmax mx) (fmin mn)
    | PDerive _ ots nts ov nv =>
        let o := fold_left (fun o vt => if snd vt <? snd o then vt else o) l (ov, ots) in
        let n := fold_left (fun o vt => if snd o <? snd vt then vt else o) l (nv, nts) in
        PDerive F (snd o) (snd n) (fst o) (fst n)
    | PLast _ v => PLast F (last vs v)
    | PMax _ m => PMax F (fmax m)
    | PMin _ m => PMin F (fmin m)
    | PStdev _ s vs0 => PStdev F (fold_left fadd vs s) (vs0 ++ vs)
    | PPerc _ vs0 => PPerc F (vs0 ++ vs)
    | PSum _ s => PSum F (fold_left fadd vs s)
    end.
  Proof.
    induction l as [|[v t] l IH]; intros p.
    - destruct p; simpl; rewrite ?N.add_0_r, ?app_nil_r; reflexivity.
    - cbn [fold_left map length fst snd]. rewrite IH. destruct p; cbn [Aggregator.proc_add]; try reflexivity.
      + f_equal. lia.
      + f_equal. lia.
      + destruct (nts <? t), (t <? ots); reflexivity.
      + rewrite last_cons. reflexivity.
      + rewrite <- app_assoc. reflexivity.
      + rewrite <- app_assoc. reflexivity.
  Qed.

  (* the function of the contributed values, as the property words it *)
  Definition fun_spec (c : contrib) : list (bytes * F) :=
    match f with
    | FAvg => [([], fdiv (fsum c) (of_N (count_ c)))]
    | FCount => [([], of_N (count_ c))]
    | FDelta => [([], fsub (fmax_ c) (fmin_ c))]
    | FDerive =>
        let o := oldest c in let n := newest c in
        if snd n =? snd o then [] else [([], fdiv (fsub (fst n) (fst o)) (of_N (snd n - snd o)))]
    | FLast => [([], flast c)]
    | FMax => [([], fmax_ c)]
    | FMin => [([], fmin_ c)]
    | FStdev =>
        let n := of_N (count_ c) in
        let mean := fdiv (fsum c) n in
        [([], fsqrt (fdiv (fold_left (fun acc t => fadd acc (fmul (fsub t mean) (fsub t mean))) (vals c) (of_N 0)) n))]
    | FPercentiles =>
        map (fun pn => ([112] ++ Decimal.N_to_dec pn,
                        percentile F fadd fsub fmul fdiv flt of_N (fsort F flt (vals c)) pn)) [25; 50; 75; 90; 95; 99]
    | FSum => [([], fsum c)]
    end.

  Theorem value_spec c : c_flush c = fun_spec c.
  Proof.
    destruct c as [[v0 t0] tl]. unfold c_flush, proc_of. rewrite fold_proc_add.
    unfold fun_spec, fsum, fmax_, fmin_, flast, count_, vals, c_all, oldest, newest. cbn [fst snd length].
    rewrite Nat2N.inj_succ, <- N.add_1_l.
    destruct f; cbn [Aggregator.proc_new Aggregator.proc_flush map app length]; try reflexivity.
    - rewrite last_cons. reflexivity.
    - rewrite map_length, Nat2N.inj_succ, <- N.add_1_l. reflexivity.
  Qed.
End Spec.
