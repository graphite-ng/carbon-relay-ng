(* Disk queue: FIFO refinement across segment roll-over.  Histories of puts, gets, sync ticks and clean restarts
   with any maxBytesPerFile: the writer closes a segment as soon as it grows beyond the limit, the reader
   leaves a segment with the record that crosses the limit, consumed segments are removed. *)
From CRNG Require Import Base.ListX Base.Bytes Model.DiskQueue Proofs.DQBasics Proofs.DQReader Proofs.DQFields Proofs.DQFifo.
From Coq Require Import ZifyBool.

Local Open Scope N_scope.

Definition segn (d : dq) (k : N) : bytes := match seg_get (f_segs (fs d)) k with Some x => x | None => [] end.

Definition handle_okk (C : bytes) (r : option rhandle) (p : nat) (k : N) : Prop :=
  match r with
  | Some h => hinv C h p /\ h_num h = k
  | None => True
  end.

Definition fsize (f : list bytes) : nat := length (frames f).
Definition fpos (f : list bytes) (n : nat) : nat := length (frames (firstn n f)).

Definition small (m : bytes) : Prop := N.of_nat (length m) < 2147483648.

Lemma handle_okk_app C r p k extra : handle_okk C r p k -> handle_okk (C ++ extra) r p k.
Proof. destruct r; cbn; [intros [H1 H2]; split; [apply hinv_app; exact H1 | exact H2] | auto]. Qed.

(* The loop is described without reference to a layout: C is the content of the file the reader is in, q the
   undelivered messages, of which the first lies framed at the read position of C. *)

(* what the loop holds ready for the consumer: the first of them, and where the one after it starts *)
Definition ahead (c : cfg) (d : dq) (C : bytes) (q : list bytes) : Prop :=
  match q with
  | [] => ready d = false /\ nextReadPos d = readPos d /\ nextReadFileNum d = readFileNum d /\
          handle_okk C (rfile d) (N.to_nat (readPos d)) (readFileNum d)
  | m :: _ => ready d = true /\ pending d = m /\
              if c_max c <? readPos d + 4 + N.of_nat (length m)
              then nextReadFileNum d = readFileNum d + 1 /\ nextReadPos d = 0 /\ rfile d = None
              else nextReadFileNum d = readFileNum d /\ nextReadPos d = readPos d + 4 + N.of_nat (length m) /\
                   handle_okk C (rfile d) (N.to_nat (nextReadPos d)) (readFileNum d) /\ rfile d <> None
  end.

(* what the positions and the files say at the read position *)
Definition at_head (rf rp wf wp : N) (segs : list (N * bytes)) (C : bytes) (q : list bytes) : Prop :=
  match q with
  | [] => (rf <? wf) || (rp <? wp) = false
  | m :: _ => (rf <? wf) || (rp <? wp) = true /\ seg_get segs rf = Some C /\ small m /\
              exists rest, skipn (N.to_nat rp) C = frame m ++ rest
  end.

(* the loop's result differs from the state after the (optional) sync only in what was read ahead *)
Definition same_files (d' X : dq) : Prop :=
  fs d' = fs X /\ trace d' = trace X /\ readFileNum d' = readFileNum X /\ writeFileNum d' = writeFileNum X /\
  readPos d' = readPos X /\ writePos d' = writePos X /\ depth d' = depth X.

Lemma ahead_app c d C q x : ahead c d C q -> ahead c d (C ++ x) q.
Proof.
  destruct q as [|m q]; cbn [ahead].
  - intros (H1 & H2 & H3 & H4). auto using handle_okk_app.
  - intros (H1 & H2 & H3). split; [exact H1|]. split; [exact H2|].
    destruct (c_max c <? _); [exact H3|]. destruct H3 as (H3 & H4 & H5 & H6). auto using handle_okk_app.
Qed.

(* readOne at a position where a frame starts *)
Lemma read_at_k c d C m rest q :
  seg_get (f_segs (fs d)) (readFileNum d) = Some C ->
  skipn (N.to_nat (readPos d)) C = frame m ++ rest -> small m ->
  handle_okk C (rfile d) (N.to_nat (readPos d)) (readFileNum d) ->
  exists d3, read_one c d = RdOk d3 m /\ same_files d3 d /\ ahead c (setr d3 m true) C (m :: q).
Proof.
  intros Hseg Hdata Hm Hh. set (p := N.to_nat (readPos d)) in *. unfold read_one.
  (* the handle that is used: the open one, or a new one at the read position *)
  set (hopt := match rfile d with Some h0 => Some h0 | None => _ end).
  assert (Hh' : exists h, hopt = Some h /\ hinv C h p /\ h_num h = readFileNum d).
  { unfold hopt. destruct (rfile d) as [h0|].
    - exists h0. destruct Hh. auto.
    - rewrite Hseg. eexists. split; [reflexivity|]. split; [|reflexivity].
      apply (f_equal (@length _)) in Hdata. rewrite skipn_length, app_length, frame_length in Hdata.
      unfold hinv. cbn [h_buf h_off length]. fold p. repeat split; lia. }
  destruct Hh' as (h & -> & Hi & Hn). rewrite Hn, Hseg.
  destruct (read_frame C h p m rest Hi Hm Hdata) as (szb & h1 & h2 & E1 & Esz & E2 & Hi2 & Hn2).
  unfold small in Hm. rewrite E1, Esz.
  replace (2147483648 <=? N.of_nat (length m)) with false by lia. rewrite Nat2N.id, E2.
  (* either way the result has the files and positions of d; what is read ahead differs *)
  destruct (c_max c <? readPos d + 4 + N.of_nat (length m)) eqn:Eroll; eexists; (split; [reflexivity|]); (split; [repeat split|]);
    cbn [ahead setr ready pending nextReadPos readPos nextReadFileNum readFileNum rfile]; rewrite Eroll.
  - auto.
  - do 4 (split; [reflexivity|]). split; [|discriminate]. split; [|congruence].
    replace (N.to_nat (readPos d + 4 + N.of_nat (length m))) with (p + 4 + length m)%nat by lia. exact Hi2.
Qed.

(* nothing is read ahead: the loop reads the next record, if there is one *)
Lemma loop_fresh c f d C q :
  at_head (readFileNum d) (readPos d) (writeFileNum d) (writePos d) (f_segs (fs d)) C q ->
  nextReadPos d = readPos d -> (q = [] -> nextReadFileNum d = readFileNum d) ->
  handle_okk C (rfile d) (N.to_nat (readPos d)) (readFileNum d) ->
  exists d', loop_top c (S f) d = Some d' /\ same_files d' (presync c d) /\ ahead c d' C q.
Proof.
  intros Hq Hnp Hnf Hh. rewrite loop_top_unfold. cbv zeta. autorewrite with dq.
  destruct q as [|m q]; cbn [at_head] in Hq.
  - rewrite Hq. eexists. split; [reflexivity|]. split; [repeat split|].
    cbn [ahead setr ready nextReadPos readPos nextReadFileNum readFileNum rfile]. autorewrite with dq. auto.
  - destruct Hq as (Hr & Hseg & Hsm & rest & Hrest). rewrite Hr, Hnp, N.eqb_refl.
    destruct (read_at_k c (presync c d) C m rest q) as (d3 & E & S3 & A3); autorewrite with dq; try assumption.
    rewrite E. eexists. split; [reflexivity|]. split; [exact S3 | exact A3].
Qed.

(* the next record is already read ahead: it stays (a record that fills a whole segment from position 0
   is read again, with the same result) *)
Lemma loop_ahead c f d C m q :
  at_head (readFileNum d) (readPos d) (writeFileNum d) (writePos d) (f_segs (fs d)) C (m :: q) ->
  ahead c d C (m :: q) ->
  exists d', loop_top c (S f) d = Some d' /\ same_files d' (presync c d) /\ ahead c d' C (m :: q).
Proof.
  intros Hq (Hrdy & Hpend & Hif). destruct (nextReadPos d =? readPos d) eqn:Eq.
  - apply N.eqb_eq in Eq. apply loop_fresh; [exact Hq | exact Eq | discriminate |].
    destruct (c_max c <? _); [destruct Hif as (_ & _ & ->); exact I | lia].
  - rewrite loop_top_unfold. cbv zeta. autorewrite with dq. destruct Hq as (-> & _). rewrite Eq.
    eexists. split; [reflexivity|]. split; [repeat split|].
    cbn [ahead setr ready pending nextReadPos readPos nextReadFileNum readFileNum rfile]. autorewrite with dq. auto.
Qed.

(* after a step that left the reader's side alone and at most appended to the file and to the queue *)
Lemma loop_settle c f d C q x t :
  ahead c d C q ->
  at_head (readFileNum d) (readPos d) (writeFileNum d) (writePos d) (f_segs (fs d)) (C ++ x) (q ++ t) ->
  exists d', loop_top c (S f) d = Some d' /\ same_files d' (presync c d) /\ ahead c d' (C ++ x) (q ++ t).
Proof.
  intros Ha Hq. apply (ahead_app c d C q x) in Ha. destruct q as [|m q].
  - destruct Ha as (_ & H1 & H2 & H3). apply loop_fresh; auto.
  - apply loop_ahead; assumption.
Qed.

(* Get hands over the record read ahead.  The loop then reads the one after it: at the start of the next file, or,
   in the same file, from the handle, which stands there *)
Lemma loop_get c f d C C' m q q' :
  ahead c d C (m :: q) -> in_bounds d ->
  at_head (nextReadFileNum d) (nextReadPos d) (writeFileNum d) (writePos d) (f_segs (fs (move_forward d))) C' q' ->
  (nextReadFileNum d = readFileNum d -> C' = C) ->
  exists d', loop_top c (S f) (move_forward d) = Some d' /\ same_files d' (presync c (move_forward d)) /\ ahead c d' C' q'.
Proof.
  intros (_ & _ & Hif) Hb Hq HC. apply loop_fresh; autorewrite with dq; auto.
  destruct (c_max c <? _); [destruct Hif as (_ & _ & ->); exact I|].
  destruct Hif as (E & _ & Hh & _). rewrite (HC E), E. exact Hh.
Qed.

Lemma ahead_pos c d C m q :
  ahead c d C (m :: q) ->
  if c_max c <? readPos d + 4 + N.of_nat (length m)
  then nextReadFileNum d = readFileNum d + 1 /\ nextReadPos d = 0
  else nextReadFileNum d = readFileNum d /\ nextReadPos d = readPos d + 4 + N.of_nat (length m).
Proof. intros (_ & _ & H). destruct (c_max c <? _); tauto. Qed.

Lemma frames_firstn_skipn f n : frames f = frames (firstn n f) ++ frames (skipn n f).
Proof. rewrite <- frames_app, firstn_skipn. reflexivity. Qed.

Lemma skipn_fpos f n : skipn (fpos f n) (frames f) = frames (skipn n f).
Proof. unfold fpos. rewrite (frames_firstn_skipn f n) at 1. rewrite skipn_app, Nat.sub_diag, skipn_all. reflexivity. Qed.

Lemma fsize_split f n : fsize f = (fpos f n + fsize (skipn n f))%nat.
Proof. unfold fsize, fpos. rewrite (frames_firstn_skipn f n) at 1. apply app_length. Qed.

Lemma fpos_le f n : (fpos f n <= fsize f)%nat.
Proof. rewrite (fsize_split f n). lia. Qed.

Lemma fpos_all f n : (length f <= n)%nat -> fpos f n = fsize f.
Proof. intros H. unfold fpos, fsize. rewrite firstn_all2 by exact H. reflexivity. Qed.

Lemma fpos_lt_fsize f n : (n < length f)%nat -> (fpos f n + 4 <= fsize f)%nat.
Proof.
  intros H. rewrite (fsize_split f n). destruct (skipn n f) as [|m r] eqn:E.
  - apply (f_equal (@length _)) in E. rewrite skipn_length in E. cbn [length] in E. lia.
  - pose proof (frames_length_pos m r). unfold fsize. lia.
Qed.

Lemma fsize_app f m : fsize (f ++ [m]) = (fsize f + 4 + length m)%nat.
Proof. unfold fsize. rewrite frames_app, frames_one, app_length, frame_length. lia. Qed.

Lemma fpos_succ f n m r : skipn n f = m :: r -> fpos f (S n) = (fpos f n + 4 + length m)%nat.
Proof.
  intros H. unfold fpos. replace (S n) with (n + 1)%nat by lia. rewrite firstn_add_skipn, H. apply fsize_app.
Qed.

Lemma fpos_app_le f m n : (n <= length f)%nat -> fpos (f ++ [m]) n = fpos f n.
Proof. intros H. unfold fpos. rewrite firstn_app_le by exact H. reflexivity. Qed.

Lemma fsize_zero w : fsize w = 0%nat -> w = [].
Proof. intros H. apply frames_nil_iff. apply length_zero_iff_nil. exact H. Qed.

Lemma last_app_one {A} (l : list A) x d0 : last (l ++ [x]) d0 = x.
Proof. apply last_last. Qed.

(* The layout of the queue over its segment files.
   pre: the messages of the closed files readFileNum, readFileNum+1, ... (each grew beyond the limit with its last record);
   w: the messages of the file being written (number readFileNum + length pre);
   off: how many records of the first of these files are already delivered. *)
Definition headf (pre : list (list bytes)) (w : list bytes) : list bytes :=
  match pre with [] => w | f0 :: _ => f0 end.
Definition undel (pre : list (list bytes)) (w : list bytes) (off : nat) : list bytes :=
  match pre with [] => skipn off w | f0 :: pre' => skipn off f0 ++ concat pre' ++ w end.

Definition closed (c : cfg) (f : list bytes) : Prop :=
  (forall n, (n < length f)%nat -> N.of_nat (fpos f n) <= c_max c) /\ c_max c < N.of_nat (fsize f).

Record sbody (c : cfg) (rf rp wf wp : N) (dep : Z) (segs : list (N * bytes))
             (pre : list (list bytes)) (w : list bytes) (off : nat) : Prop := {
  sb_nums : wf = rf + N.of_nat (length pre);
  sb_closed : forall f, In f pre -> closed c f;
  sb_open : N.of_nat (fsize w) <= c_max c;
  sb_segs : forall i f, nth_error pre i = Some f -> seg_get segs (rf + N.of_nat i) = Some (frames f);
  sb_wseg : seg_get segs wf = Some (frames w) \/ (w = [] /\ seg_get segs wf = None);
  sb_above : forall k, wf < k -> seg_get segs k = None;
  sb_off : (off <= length (headf pre w))%nat /\ (pre <> [] -> (off < length (headf pre w))%nat);
  sb_rpos : rp = N.of_nat (fpos (headf pre w) off);
  sb_wpos : wp = N.of_nat (fsize w);
  sb_depth : dep = Z.of_nat (length (undel pre w off));
  sb_small : forall m, In m (concat pre ++ w) -> small m }.

(* what the loop has read ahead *)
Definition head_ok (c : cfg) (d : dq) (pre : list (list bytes)) (w : list bytes) (off : nat) : Prop :=
  match undel pre w off with
  | [] => ready d = false /\ nextReadPos d = readPos d /\ nextReadFileNum d = readFileNum d /\
          handle_okk (frames (headf pre w)) (rfile d) (N.to_nat (readPos d)) (readFileNum d)
  | m :: _ => ready d = true /\ pending d = m /\
              if c_max c <? readPos d + 4 + N.of_nat (length m)
              then nextReadFileNum d = readFileNum d + 1 /\ nextReadPos d = 0 /\ rfile d = None
              else nextReadFileNum d = readFileNum d /\ nextReadPos d = readPos d + 4 + N.of_nat (length m) /\
                   handle_okk (frames (headf pre w)) (rfile d) (N.to_nat (nextReadPos d)) (readFileNum d) /\ rfile d <> None
  end.

Definition sinv (c : cfg) (d : dq) (pre : list (list bytes)) (w : list bytes) (off : nat) : Prop :=
  sbody c (readFileNum d) (readPos d) (writeFileNum d) (writePos d) (depth d) (f_segs (fs d)) pre w off /\
  head_ok c d pre w off.

Lemma head_ok_ahead c d pre w off : head_ok c d pre w off = ahead c d (frames (headf pre w)) (undel pre w off).
Proof. reflexivity. Qed.

Lemma closed_nonempty c f : closed c f -> f <> [].
Proof. intros [_ H] ->. cbn in H. lia. Qed.

(* the record that crosses the limit is the last one of a closed file, and no other is *)
Lemma closed_crossing c f n : closed c f -> (n <= length f)%nat -> (c_max c < N.of_nat (fpos f n) <-> n = length f).
Proof.
  intros [Hc Hz] Hn. split; [|intros ->; rewrite fpos_all by lia; exact Hz].
  intros H. destruct (Nat.eq_dec n (length f)) as [E|E]; [exact E|]. specialize (Hc n ltac:(lia)). lia.
Qed.

(* the record that takes a file beyond the limit closes it *)
Lemma closed_snoc c w m : N.of_nat (fsize w) <= c_max c -> c_max c < N.of_nat (fsize (w ++ [m])) -> closed c (w ++ [m]).
Proof.
  intros Hop Hz. split; [|exact Hz]. intros n Hn. rewrite app_length in Hn. cbn [length] in Hn.
  rewrite fpos_app_le by lia. pose proof (fpos_le w n). lia.
Qed.

Lemma undel_zero pre w : undel pre w 0 = concat pre ++ w.
Proof. destruct pre; cbn [undel skipn concat]; [reflexivity | rewrite app_assoc; reflexivity]. Qed.

Lemma headf_length pre w : (length (headf pre w) <= length (concat pre ++ w))%nat.
Proof. destruct pre; cbn [headf concat]; rewrite ?app_length; lia. Qed.

Lemma in_head_all pre w m : In m (headf pre w) -> In m (concat pre ++ w).
Proof.
  destruct pre as [|f0 pre']; cbn [headf concat app]; intros H; [exact H|].
  apply in_or_app. left. apply in_or_app. left. exact H.
Qed.

Section Offset.
  Variables (pre : list (list bytes)) (w : list bytes) (off : nat).
  Hypothesis H1 : (off <= length (headf pre w))%nat.
  Hypothesis H2 : pre <> [] -> (off < length (headf pre w))%nat.

  Lemma undel_nil_inv : undel pre w off = [] -> pre = [] /\ off = length w.
  Proof.
    intros E. apply (f_equal (@length _)) in E. destruct pre as [|f0 pre']; cbn [undel headf length] in *.
    - rewrite skipn_length in E. split; [reflexivity | lia].
    - specialize (H2 ltac:(discriminate)). rewrite app_length, skipn_length in E. lia.
  Qed.

  Lemma undel_cons_inv m r : undel pre w off = m :: r -> exists r', skipn off (headf pre w) = m :: r' /\ (off < length (headf pre w))%nat.
  Proof.
    intros E. assert (Hlt : (off < length (headf pre w))%nat).
    { destruct pre as [|f0 pre']; [|apply H2; discriminate]. apply (f_equal (@length _)) in E. cbn [undel headf length] in *. rewrite skipn_length in E. lia. }
    split with (tl (skipn off (headf pre w))); split; [|exact Hlt].
    destruct (skipn off (headf pre w)) as [|m' r'] eqn:E0.
    - apply (f_equal (@length _)) in E0. rewrite skipn_length in E0. cbn [length] in E0. lia.
    - destruct pre; cbn [undel headf] in *; rewrite E0 in E; injection E as -> _; reflexivity.
  Qed.
End Offset.

Lemma undel_put pre w off m :
  (off <= length (headf pre w))%nat -> undel pre (w ++ [m]) off = undel pre w off ++ [m].
Proof.
  intros H. destruct pre as [|f0 pre']; cbn [undel headf] in *.
  - apply skipn_app_le. exact H.
  - rewrite <- !app_assoc. reflexivity.
Qed.

Lemma headf_put_noroll pre w m : exists x, headf pre (w ++ [m]) = headf pre w ++ x /\ (pre <> [] -> x = []).
Proof. destruct pre as [|f0 pre']; cbn [headf]; [exists [m]; split; [reflexivity | intros H; contradiction] | exists []; split; [rewrite app_nil_r; reflexivity | reflexivity]]. Qed.

(* closing the write file x and opening an empty one changes nothing for the reader, nor the list of all messages *)
Lemma headf_roll pre x : headf (pre ++ [x]) [] = headf pre x.
Proof. destruct pre; reflexivity. Qed.

Lemma undel_roll pre x off : undel (pre ++ [x]) [] off = undel pre x off.
Proof.
  destruct pre as [|f0 pre']; cbn [undel app concat]; [|rewrite concat_app; cbn [concat]]; rewrite !app_nil_r; reflexivity.
Qed.

(* the left side is how `concat pre ++ w` reads at the layout (pre ++ [x], []) *)
Lemma concat_roll pre (x : list bytes) : concat (pre ++ [x]) ++ [] = concat pre ++ x.
Proof. rewrite <- !undel_zero. apply undel_roll. Qed.

(* what the positions and the files say at the read position, from a layout whose files are there; junk: what the
   write file holds beyond w *)
Lemma layout_at_head rf wf segs pre w off junk :
  wf = rf + N.of_nat (length pre) ->
  (forall i f, nth_error pre i = Some f -> seg_get segs (rf + N.of_nat i) = Some (frames f)) ->
  seg_get segs wf = Some (frames w ++ junk) \/ (w = [] /\ seg_get segs wf = None) ->
  (off <= length (headf pre w))%nat -> (pre <> [] -> (off < length (headf pre w))%nat) ->
  (forall m, In m (concat pre ++ w) -> small m) ->
  at_head rf (N.of_nat (fpos (headf pre w) off)) wf (N.of_nat (fsize w)) segs
          (match pre with [] => frames w ++ junk | f0 :: _ => frames f0 end) (undel pre w off).
Proof.
  intros -> Hsg Hws Ho1 Ho2 Hsm. destruct (undel pre w off) as [|m r] eqn:EU; cbn [at_head].
  - destruct (undel_nil_inv pre w off Ho1 Ho2 EU) as [-> ->]. cbn [headf length]. rewrite fpos_all by lia. lia.
  - destruct (undel_cons_inv pre w off Ho1 Ho2 m r EU) as (r' & Es & Hlt). split; [|split; [|split]].
    + destruct pre; cbn [headf length] in *; [pose proof (fpos_lt_fsize w off Hlt)|]; lia.
    + (* the file the reader is in exists, since something is undelivered *)
      destruct pre as [|f0 pre']; [|rewrite <- (N.add_0_r rf); exact (Hsg 0%nat f0 eq_refl)].
      cbn [length] in Hws. rewrite N.add_0_r in Hws. destruct Hws as [H|[-> _]]; [exact H|].
      cbn [undel] in EU. rewrite skipn_nil in EU. discriminate.
    + apply Hsm, in_head_all, (In_skipn off). rewrite Es. left. reflexivity.
    + rewrite Nat2N.id. destruct pre as [|f0 pre']; cbn [headf] in *.
      * exists (frames r' ++ junk). rewrite skipn_app_le by apply fpos_le. rewrite skipn_fpos, Es, frames_cons, <- app_assoc. reflexivity.
      * exists (frames r'). rewrite skipn_fpos, Es, frames_cons. reflexivity.
Qed.

(* a layout at the next read position: moveForward finds nothing to repair, and at the tail nothing is undelivered *)
Lemma layout_in_bounds d pre w off :
  writeFileNum d = nextReadFileNum d + N.of_nat (length pre) ->
  (off <= length (headf pre w))%nat -> (pre <> [] -> (off < length (headf pre w))%nat) ->
  nextReadPos d = N.of_nat (fpos (headf pre w) off) -> writePos d = N.of_nat (fsize w) ->
  in_bounds d /\ (at_tail (advance d) -> undel pre w off = []).
Proof.
  intros Hn Ho1 Ho2 Hr Hw. unfold in_bounds, at_tail, readable. cbn [advance readFileNum readPos writeFileNum writePos].
  destruct (undel pre w off) as [|m r] eqn:EU.
  - destruct (undel_nil_inv pre w off Ho1 Ho2 EU) as [-> ->]. cbn [headf length] in *. rewrite fpos_all in Hr by lia.
    split; [right; lia | reflexivity].
  - destruct (undel_cons_inv pre w off Ho1 Ho2 m r EU) as (_ & _ & Hlt).
    destruct pre; cbn [headf length] in *; [pose proof (fpos_lt_fsize w off Hlt)|]; (split; [left|]; lia).
Qed.

(* Get, on the layout: the reader leaves a file with the record that crosses the limit *)
Lemma layout_get c pre w off m r :
  (forall f, In f pre -> closed c f) -> N.of_nat (fsize w) <= c_max c ->
  (off <= length (headf pre w))%nat -> (pre <> [] -> (off < length (headf pre w))%nat) ->
  undel pre w off = m :: r ->
  if c_max c <? N.of_nat (fpos (headf pre w) off) + 4 + N.of_nat (length m)
  then exists f0 pre', pre = f0 :: pre' /\ S off = length f0 /\ undel pre' w 0 = r /\ (pre' <> [] -> (0 < length (headf pre' w))%nat)
  else undel pre w (S off) = r /\ ((S off <= length (headf pre w))%nat /\ (pre <> [] -> (S off < length (headf pre w))%nat)) /\
       fpos (headf pre w) (S off) = (fpos (headf pre w) off + 4 + length m)%nat.
Proof.
  intros Hcl Hop Ho1 Ho2 EU.
  destruct (undel_cons_inv pre w off Ho1 Ho2 m r EU) as (r' & Es & Hlt).
  pose proof (fpos_succ _ _ _ _ Es) as Hnext. pose proof (skipn_next _ _ _ _ Es) as Es'.
  destruct (c_max c <? _) eqn:Eroll.
  - destruct pre as [|f0 pre']; cbn [headf] in *.
    { exfalso. pose proof (fpos_le w (S off)). lia. }
    assert (Hlast : S off = length f0) by (apply (closed_crossing c f0); [apply Hcl; left; reflexivity | lia | lia]).
    exists f0, pre'. split; [reflexivity|]. split; [exact Hlast|]. split.
    + rewrite Hlast, skipn_all in Es'. subst r'. cbn [undel] in EU. rewrite Es in EU. injection EU as <-. apply undel_zero.
    + intros Hne. destruct pre' as [|f1 pre'']; [contradiction|]. cbn [headf].
      pose proof (closed_nonempty c f1 (Hcl f1 (or_intror (or_introl eq_refl)))). destruct f1; [contradiction | cbn [length]; lia].
  - split; [|split; [|exact Hnext]].
    + destruct pre; cbn [undel headf] in *; rewrite Es'; rewrite Es in EU; injection EU as <-; reflexivity.
    + split; [exact Hlt|]. intros Hne. destruct pre as [|f0 pre']; [contradiction|]. cbn [headf] in *.
      pose proof (closed_crossing c f0 (S off) (Hcl f0 (or_introl eq_refl)) Hlt). lia.
Qed.

Lemma sbody_at_head {c rf rp wf wp dep segs pre w off} :
  sbody c rf rp wf wp dep segs pre w off -> at_head rf rp wf wp segs (frames (headf pre w)) (undel pre w off).
Proof.
  intros [Hn _ _ Hsg Hws _ [Ho1 Ho2] -> -> _ Hsm]. rewrite <- (app_nil_r (frames w)) in Hws.
  pose proof (layout_at_head rf wf segs pre w off [] Hn Hsg Hws Ho1 Ho2 Hsm) as H.
  destruct pre; [rewrite app_nil_r in H|]; exact H.
Qed.

Lemma sbody_in_bounds c d dep segs pre w off :
  sbody c (nextReadFileNum d) (nextReadPos d) (writeFileNum d) (writePos d) dep segs pre w off ->
  in_bounds d /\ (at_tail (advance d) -> dep = 0%Z).
Proof.
  intros [Hn _ _ _ _ _ [Ho1 Ho2] Hr Hw -> _]. destruct (layout_in_bounds d pre w off Hn Ho1 Ho2 Hr Hw) as [Hb Ht].
  split; [exact Hb | intros H; rewrite (Ht H); reflexivity].
Qed.

Lemma sbody_settled c d' X pre w off :
  same_files d' (presync c X) ->
  (sbody c (readFileNum d') (readPos d') (writeFileNum d') (writePos d') (depth d') (f_segs (fs d')) pre w off <->
   sbody c (readFileNum X) (readPos X) (writeFileNum X) (writePos X) (depth X) (f_segs (fs X)) pre w off).
Proof. intros (S1 & S2 & S3 & S4 & S5 & S6 & S7). rewrite S1, S3, S4, S5, S6, S7. autorewrite with dq. reflexivity. Qed.

(* Put: the record goes to the end of the write file; if that takes the file beyond the limit, it is closed *)
Lemma sbody_put {c rf rp wf wp dep segs} segs' {pre w off m} :
  sbody c rf rp wf wp dep segs pre w off -> small m ->
  (forall k, seg_get segs' k = if k =? wf then Some (frames w ++ frame m) else seg_get segs k) ->
  let roll := c_max c <? wp + 4 + N.of_nat (length m) in
  exists pre' w',
    (if roll then pre' = pre ++ [w ++ [m]] /\ w' = [] else pre' = pre /\ w' = w ++ [m]) /\
    headf pre' w' = headf pre (w ++ [m]) /\ undel pre' w' off = undel pre w off ++ [m] /\
    sbody c rf rp (if roll then wf + 1 else wf) (if roll then 0 else wp + 4 + N.of_nat (length m)) (dep + 1) segs' pre' w' off.
Proof.
  intros [Hn Hcl Hop Hsg Hws Hab [Ho1 Ho2] Hr Hw Hd Hsm] Hm Hsegs roll.
  assert (T1 : forall i f, nth_error pre i = Some f -> seg_get segs' (rf + N.of_nat i) = Some (frames f)).
  { intros i f Hf. assert (i < length pre)%nat by (apply nth_error_Some; congruence).
    rewrite Hsegs. replace (rf + N.of_nat i =? wf) with false by lia. exact (Hsg i f Hf). }
  assert (T2 : seg_get segs' wf = Some (frames (w ++ [m]))) by (rewrite Hsegs, N.eqb_refl, frames_app, frames_one; reflexivity).
  assert (T3 : forall k, wf < k -> seg_get segs' k = None).
  { intros k Hk. rewrite Hsegs. replace (k =? wf) with false by lia. exact (Hab k Hk). }
  (* what the reader sees, which does not depend on whether the file is closed *)
  assert (Ho' : (off < length (headf pre (w ++ [m])))%nat).
  { destruct pre; cbn [headf] in *; [rewrite app_length; cbn [length]; lia | apply Ho2; discriminate]. }
  assert (Hr' : rp = N.of_nat (fpos (headf pre (w ++ [m])) off)).
  { destruct pre; cbn [headf] in *; [rewrite fpos_app_le by exact Ho1|]; exact Hr. }
  assert (Hd' : (dep + 1)%Z = Z.of_nat (length (undel pre (w ++ [m]) off))).
  { rewrite undel_put, app_length by exact Ho1. cbn [length]. lia. }
  assert (Hsm' : forall x, In x (concat pre ++ w ++ [m]) -> small x).
  { intros x Hx. rewrite app_assoc in Hx. apply in_app_or in Hx as [Hx|[<-|[]]]; [exact (Hsm x Hx) | exact Hm]. }
  assert (Hsz : N.of_nat (fsize (w ++ [m])) = wp + 4 + N.of_nat (length m)) by (rewrite fsize_app; lia).
  destruct roll eqn:Eroll; subst roll.
  - exists (pre ++ [w ++ [m]]), []. rewrite headf_roll, undel_roll, undel_put by exact Ho1. do 3 (split; [auto|]).
    constructor; rewrite ?headf_roll, ?undel_roll, ?concat_roll; try assumption.
    + (* sb_nums *) rewrite app_length. cbn [length]. lia.
    + (* sb_closed *) intros f Hf. apply in_app_or in Hf as [Hf|[<-|[]]]; [exact (Hcl f Hf) | apply closed_snoc; lia].
    + (* sb_open *) cbn. lia.
    + (* sb_segs *) intros i f Hf. apply nth_error_app_one in Hf as [[_ Hf]|[-> ->]]; [exact (T1 i f Hf) | rewrite <- Hn; exact T2].
    + (* sb_wseg *) right. split; [reflexivity | apply T3; lia].
    + (* sb_above *) intros k Hk. apply T3. lia.
    + (* sb_off *) split; [lia | intros _; exact Ho'].
    + (* sb_wpos *) reflexivity.
  - exists pre, (w ++ [m]). rewrite undel_put by exact Ho1. do 3 (split; [auto|]).
    constructor; try assumption; try lia. left. exact T2.
Qed.

(* Get, with the next read position (rf', rp') as readOne has computed it: in the same file, or at the start of the
   next one, and then the file that is left is removed *)
Lemma sbody_get {c rf rp wf wp dep segs pre w off m r} rf' rp' :
  sbody c rf rp wf wp dep segs pre w off -> undel pre w off = m :: r ->
  (if c_max c <? rp + 4 + N.of_nat (length m) then rf' = rf + 1 /\ rp' = 0 else rf' = rf /\ rp' = rp + 4 + N.of_nat (length m)) ->
  exists pre' off',
    undel pre' w off' = r /\ sbody c rf' rp' wf wp (dep - 1) (if rf =? rf' then segs else seg_del segs rf) pre' w off' /\
    if rf =? rf' then pre' = pre /\ off' = S off else (exists f0, pre = f0 :: pre' /\ S off = length f0) /\ off' = 0%nat.
Proof.
  intros [Hn Hcl Hop Hsg Hws Hab [Ho1 Ho2] -> Hw Hd Hsm] EU Hpos. rewrite EU in Hd. cbn [length] in Hd.
  pose proof (layout_get c pre w off m r Hcl Hop Ho1 Ho2 EU) as G. destruct (c_max c <? _); destruct Hpos as [-> ->].
  - replace (rf =? rf + 1) with false by lia. destruct G as (f0 & pre' & -> & Hlast & U & Ho).
    exists pre', 0%nat. split; [exact U|]. split; [|eauto]. cbn [length] in Hn. constructor; try assumption.
    + (* sb_nums *) lia.
    + (* sb_closed *) intros f Hf. apply Hcl. right. exact Hf.
    + (* sb_segs *) intros i f Hf. rewrite seg_get_del_other by lia.
      replace (rf + 1 + N.of_nat i) with (rf + N.of_nat (S i)) by lia. apply Hsg. exact Hf.
    + (* sb_wseg *) rewrite seg_get_del_other by lia. exact Hws.
    + (* sb_above *) intros k Hk. rewrite seg_get_del_other by lia. apply Hab. exact Hk.
    + (* sb_off *) split; [lia | exact Ho].
    + (* sb_rpos *) reflexivity.
    + (* sb_depth *) rewrite U. lia.
    + (* sb_small *) intros x Hx. apply Hsm. cbn [concat]. rewrite <- app_assoc. apply in_or_app. right. exact Hx.
  - rewrite N.eqb_refl. destruct G as (U & G1 & G2). exists pre, (S off). split; [exact U|]. split; [|auto].
    constructor; try assumption; [(* sb_rpos *) lia | (* sb_depth *) rewrite U; lia].
Qed.

Lemma sinv_fresh c f X pre w off :
  sbody c (readFileNum X) (readPos X) (writeFileNum X) (writePos X) (depth X) (f_segs (fs X)) pre w off ->
  nextReadPos X = readPos X -> nextReadFileNum X = readFileNum X ->
  handle_okk (frames (headf pre w)) (rfile X) (N.to_nat (readPos X)) (readFileNum X) ->
  exists d', loop_top c (S f) X = Some d' /\ sinv c d' pre w off /\ same_files d' (presync c X).
Proof.
  intros B Hp Hf Hh. destruct (loop_fresh c f X _ _ (sbody_at_head B) Hp (fun _ => Hf) Hh) as (d' & E & SF & A).
  exists d'. split; [exact E|]. split; [|exact SF]. split; [apply (sbody_settled c d' X), B; exact SF | exact A].
Qed.

Lemma sinv_settle c d pre w off pre' w' x t :
  ahead c d (frames (headf pre w)) (undel pre w off) ->
  sbody c (readFileNum d) (readPos d) (writeFileNum d) (writePos d) (depth d) (f_segs (fs d)) pre' w' off ->
  frames (headf pre' w') = frames (headf pre w) ++ x -> undel pre' w' off = undel pre w off ++ t ->
  exists d', loop_top c LOOP_FUEL d = Some d' /\ sinv c d' pre' w' off /\ same_files d' (presync c d).
Proof.
  intros Ha B Hx Ht. pose proof (sbody_at_head B) as Hq. rewrite Hx, Ht in Hq.
  destruct (loop_settle c 63 d _ _ x t Ha Hq) as (d' & E & SF & A). rewrite <- Hx, <- Ht in A.
  exists d'. split; [exact E|]. split; [|exact SF]. split; [apply (sbody_settled c d' d), B; exact SF | exact A].
Qed.

Lemma fs_written_get d m w :
  seg_get (f_segs (fs d)) (writeFileNum d) = Some (frames w) \/ (w = [] /\ seg_get (f_segs (fs d)) (writeFileNum d) = None) ->
  writePos d = N.of_nat (fsize w) ->
  forall k, seg_get (f_segs (fs_written d m)) k = if k =? writeFileNum d then Some (frames w ++ frame m) else seg_get (f_segs (fs d)) k.
Proof.
  intros HC Hw k. unfold fs_written, with_segs. cbn [f_segs].
  replace (match seg_get (f_segs (fs d)) (writeFileNum d) with Some x => x | None => [] end) with (frames w)
    by (destruct HC as [->|[-> ->]]; reflexivity).
  rewrite Hw, Nat2N.id. unfold fsize. rewrite write_at_end. apply seg_get_set.
Qed.

Lemma ahead_write_one c d m C q : ahead c d C q -> ahead c (write_one c d m) C q.
Proof. unfold ahead. autorewrite with dq. auto. Qed.

Lemma sinv_put c d pre w off m :
  sinv c d pre w off -> small m ->
  exists d' pre' w', loop_top c LOOP_FUEL (write_one c d m) = Some d' /\ sinv c d' pre' w' off /\
                     undel pre' w' off = undel pre w off ++ [m] /\
                     (if rolls c d m then pre' = pre ++ [w ++ [m]] /\ w' = [] else pre' = pre /\ w' = w ++ [m]) /\
                     same_files d' (presync c (write_one c d m)).
Proof.
  intros [B Hhead] Hm. apply (ahead_write_one c d m) in Hhead. pose proof B as [_ _ _ _ HC _ _ _ Hw _ _].
  destruct (sbody_put (f_segs (fs_written d m)) B Hm (fs_written_get d m w HC Hw)) as (pre' & w' & Hshape & Hx & U & B1).
  destruct (headf_put_noroll pre w m) as (x & Hx' & _). rewrite Hx' in Hx. apply (f_equal frames) in Hx. rewrite frames_app in Hx.
  destruct (sinv_settle c (write_one c d m) pre w off pre' w' (frames x) [m] Hhead) as (d' & E & Hi & SF);
    [autorewrite with dq; exact B1 | exact Hx | exact U |].
  exists d', pre', w'. auto 6.
Qed.

Lemma sinv_tick c d pre w off :
  sinv c d pre w off -> exists d', loop_top c LOOP_FUEL (set_needsync d true) = Some d' /\ sinv c d' pre w off /\
                        same_files d' (presync c (set_needsync d true)).
Proof.
  intros [B Hhead]. apply (sinv_settle c (set_needsync d true) pre w off pre w [] []); [exact Hhead | exact B | |]; symmetry; apply app_nil_r.
Qed.

Lemma sinv_get c d pre w off m r :
  sinv c d pre w off -> undel pre w off = m :: r ->
  exists d' pre' off', loop_top c LOOP_FUEL (move_forward d) = Some d' /\ sinv c d' pre' w off' /\ undel pre' w off' = r /\
                       same_files d' (presync c (advance d)) /\
                       if readFileNum d =? nextReadFileNum d then pre' = pre /\ off' = S off
                       else (exists f0, pre = f0 :: pre' /\ S off = length f0) /\ off' = 0%nat.
Proof.
  intros [B Hhead] EU. rewrite head_ok_ahead, EU in Hhead.
  destruct (sbody_get (nextReadFileNum d) (nextReadPos d) B EU (ahead_pos c d _ m r Hhead)) as (pre' & off' & U & B' & Hshape).
  destruct (sbody_in_bounds c d _ _ _ _ _ B') as [Hb Hd]. pose proof (move_forward_exact d Hb Hd) as EX.
  destruct (loop_get c 63 d _ (frames (headf pre' w)) m r (undel pre' w off') Hhead Hb) as (d' & E & SF & A).
  - rewrite move_forward_segs by exact Hb. exact (sbody_at_head B').
  - intros H. rewrite H, N.eqb_refl in Hshape. destruct Hshape as [-> _]. reflexivity.
  - exists d', pre', off'. split; [exact E|]. split; [split; [|exact A] | rewrite <- EX; auto].
    apply (sbody_settled c d' (move_forward d)); [exact SF|]. autorewrite with dq.
    rewrite move_forward_depth, move_forward_segs by assumption. exact B'.
Qed.

(* a clean restart: Close persists the metadata, NewDiskQueue reads it back and reads again the record
   that had been read ahead but not delivered *)
Lemma sinv_reopen c d pre w off :
  sinv c d pre w off ->
  exists d', dq_open c (fs (dq_close d)) (trace (dq_close d)) = Some d' /\ sinv c d' pre w off /\
             same_files d' (presync c (opened (fs (dq_close d)) (trace (dq_close d)) (depth d) (readFileNum d) (readPos d) (writeFileNum d) (writePos d))).
Proof.
  intros [B _]. rewrite dq_reopen. apply sinv_fresh; [exact B | reflexivity | reflexivity | exact I].
Qed.

Lemma sinv_open_empty c : exists d, dq_open c fs_empty [] = Some d /\ sinv c d [] [] 0 /\
  same_files d (presync c (opened fs_empty [] 0 0 0 0 0)).
Proof.
  rewrite dq_open_nometa by reflexivity. apply sinv_fresh; [|reflexivity | reflexivity | exact I].
  constructor; try reflexivity; cbn; try lia; try tauto; [intros [|i] f H; discriminate | split; [lia | intros H; contradiction]].
Qed.

Fixpoint smallops (ops : list dop) : bool :=
  match ops with
  | [] => true
  | Put m :: r => (N.of_nat (length m) <? 2147483648) && smallops r
  | _ :: r => smallops r
  end.

(* any maxBytesPerFile, any syncEvery, messages below 2^31 bytes *)
Theorem fifo_refinement_segments c ops : forall d pre w off,
  sinv c d pre w off -> smallops ops = true ->
  fst (dq_run c (Some d) ops) = fifo_run (undel pre w off) ops.
Proof.
  induction ops as [|o ops IH]; intros d pre w off Hi F; [reflexivity|].
  pose proof Hi as [[_ _ _ _ _ _ _ _ _ Hd _] Hh]. rewrite head_ok_ahead in Hh.
  rewrite dq_run_cons. destruct o as [m| | |]; cbn [smallops] in F; cbn [dq_step fifo_run fst snd].
  - apply andb_true_iff in F as [F1 F2].
    destruct (sinv_put c d pre w off m Hi ltac:(unfold small; lia)) as (d' & pre' & w' & E & Hi' & U & _).
    rewrite E, (IH d' pre' w' off Hi' F2), U. reflexivity.
  - destruct (undel pre w off) as [|m q'] eqn:EU.
    + destruct Hh as (-> & _). cbn [fst snd]. rewrite (IH d pre w off Hi F), EU. reflexivity.
    + destruct Hh as (-> & -> & _). cbn [fst snd].
      destruct (sinv_get c d pre w off m q' Hi EU) as (d' & pre' & off' & E & Hi' & U & _).
      rewrite E, (IH d' pre' w off' Hi' F), U. reflexivity.
  - destruct (sinv_tick c d pre w off Hi) as (d' & E & Hi' & _).
    rewrite E, (IH d' pre w off Hi' F). reflexivity.
  - destruct (sinv_reopen c d pre w off Hi) as (d' & E & Hi' & _).
    rewrite E, dq_close_depth, Hd, (IH d' pre w off Hi' F). reflexivity.
Qed.

Theorem fifo_from_empty_segments c ops :
  smallops ops = true ->
  fst (dq_run c (dq_open c fs_empty []) ops) = fifo_run [] ops.
Proof.
  intros F. destruct (sinv_open_empty c) as (d & E & Hi & _). rewrite E.
  apply (fifo_refinement_segments c ops d [] [] 0 Hi F).
Qed.

(* staying within the first segment is a special case *)
Lemma fits_smallops c ops : forall wp, fits c wp ops = true -> smallops ops = true.
Proof.
  induction ops as [|[m| | |] ops IH]; intros wp; cbn [fits smallops]; auto; try apply IH.
  intros H. apply andb_true_iff in H as [H H3]. apply andb_true_iff in H as [-> _]. exact (IH _ H3).
Qed.
