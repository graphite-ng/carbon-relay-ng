(* C04: the tokens of a line are non-empty and free of spaces; rewriters apply in order; what replace_n does. *)
From CRNG Require Import Base.Bytes Lib.Regex Model.Fields Model.Matcher Model.Rewriter.

Lemma rev_token (cur : bytes) :
  cur <> [] -> (forall c, In c cur -> c <> 32) -> rev cur <> [] /\ ~ In 32 (rev cur).
Proof.
  intros Hne Hc. split.
  - intros E. apply Hne. rewrite <- (rev_involutive cur), E. reflexivity.
  - intros H. apply in_rev in H. exact (Hc _ H eq_refl).
Qed.

Lemma fields_go_tokens s : forall cur skip tok,
  (forall c, In c cur -> c <> 32) ->
  In tok (fields_go s cur skip) -> tok <> [] /\ ~ In 32 tok.
Proof.
  induction s as [|c s IH]; intros cur skip tok Hc; cbn [fields_go].
  - destruct cur as [|x cur]; [intros []|]. intros [<-|[]]. apply rev_token; [discriminate|exact Hc].
  - destruct skip as [|k]; [|apply IH; exact Hc].
    destruct (space_width (c :: s)) as [|w] eqn:SW.
    + apply IH. intros x [<-|Hx]; [|apply Hc; exact Hx]. intros ->. discriminate SW.
    + destruct cur as [|x cur]; [apply IH; intros ? []|].
      intros [<-|H]; [apply rev_token; [discriminate|exact Hc] | eapply IH; [|exact H]; intros ? []].
Qed.

Theorem fields_tokens buf tok : In tok (fields buf) -> tok <> [] /\ ~ In 32 tok.
Proof. apply fields_go_tokens. intros ? []. Qed.

Lemma rewrite_all_cons r rs n : rewrite_all (r :: rs) n = rewrite_all rs (rw_do r n).
Proof. reflexivity. Qed.

Lemma rewrite_all_app rs1 rs2 n : rewrite_all (rs1 ++ rs2) n = rewrite_all rs2 (rewrite_all rs1 n).
Proof. unfold rewrite_all. apply fold_left_app. Qed.

Lemma rw_not_skips r buf :
  (match rw_notre r with
   | Some nr => re_search nr buf
   | None => nonempty (rw_not r) && contains (rw_not r) buf
   end) = true -> rw_do r buf = buf.
Proof. unfold rw_do. intros ->. reflexivity. Qed.

Lemma replace_n_zero fuel s old new : replace_n fuel s old new 0 = s.
Proof. destruct fuel; reflexivity. Qed.

Lemma has_prefix_contains old s : has_prefix old s = true -> contains old s = true.
Proof. rewrite has_prefix_spec, contains_spec. intros [t ->]. exists [], t. reflexivity. Qed.

Lemma replace_n_absent fuel : forall s old new n, contains old s = false -> replace_n fuel s old new n = s.
Proof.
  induction fuel as [|f IH]; intros s old new n H; simpl; [reflexivity|].
  destruct (n =? 0)%Z; [reflexivity|]. destruct s as [|c s']; [reflexivity|].
  cbn [contains] in H. apply orb_false_iff in H as [H1 H2]. rewrite H1. f_equal. apply IH. exact H2.
Qed.

Lemma replace_n_first fuel s old new n :
  (n <> 0)%Z -> has_prefix old s = true -> s <> [] ->
  replace_n (S fuel) s old new n = new ++ replace_n fuel (skipn (length old) s) old new (if (n <? 0)%Z then n else n - 1)%Z.
Proof.
  intros Hn Hp Hs. simpl. destruct (n =? 0)%Z eqn:E; [apply Z.eqb_eq in E; contradiction|].
  destruct s; [contradiction|]. rewrite Hp. reflexivity.
Qed.
