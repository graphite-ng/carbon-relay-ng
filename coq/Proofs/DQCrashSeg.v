(* Disk queue: a crash at any file-system mutation, across segment roll-over.  Every file-system state that a
   run passes through is an image (img) of the history; NewDiskQueue recovers an image into a queue that drains
   to a contiguous run of the enqueued messages (img_recover, crash_recovery_all). *)
From CRNG Require Import Base.ListX Base.Bytes Model.DiskQueue Proofs.DQBasics Proofs.DQFields Proofs.DQFifo Proofs.DQFifoSeg Proofs.DQCrash.
From Coq Require Import ZifyBool.

Local Open Scope N_scope.

(* A recovered queue, which is only drained: the write file may hold more than the metadata says (junk),
   files beyond it may exist, the depth may be stale. *)
Definition hcont (pre : list (list bytes)) (w : list bytes) (junk : bytes) : bytes :=
  match pre with [] => frames w ++ junk | f0 :: _ => frames f0 end.

Record dbody (c : cfg) (rf rp wf wp : N) (segs : list (N * bytes))
             (pre : list (list bytes)) (w : list bytes) (off : nat) (junk : bytes) : Prop := {
  db_nums : wf = rf + N.of_nat (length pre);
  db_closed : forall f, In f pre -> closed c f;
  db_open : N.of_nat (fsize w) <= c_max c;
  db_segs : forall i f, nth_error pre i = Some f -> seg_get segs (rf + N.of_nat i) = Some (frames f);
  db_wseg : seg_get segs wf = Some (frames w ++ junk) \/ (w = [] /\ seg_get segs wf = None);
  db_off : (off <= length (headf pre w))%nat /\ (pre <> [] -> (off < length (headf pre w))%nat);
  db_rpos : rp = N.of_nat (fpos (headf pre w) off);
  db_wpos : wp = N.of_nat (fsize w);
  db_small : forall m, In m (concat pre ++ w) -> small m }.

Definition dinv (c : cfg) (d : dq) (pre : list (list bytes)) (w : list bytes) (off : nat) (junk : bytes) : Prop :=
  dbody c (readFileNum d) (readPos d) (writeFileNum d) (writePos d) (f_segs (fs d)) pre w off junk /\
  ahead c d (hcont pre w junk) (undel pre w off).

Lemma hcont_tail f0 pre' w junk : hcont (f0 :: pre') w junk = frames f0.
Proof. reflexivity. Qed.

(* the live invariant is the special case without junk, with nothing beyond the write file and the right depth *)
Lemma sbody_dbody {c rf rp wf wp dep segs pre w off} :
  sbody c rf rp wf wp dep segs pre w off -> dbody c rf rp wf wp segs pre w off [].
Proof. intros []. constructor; try assumption. rewrite app_nil_r. assumption. Qed.

Lemma dbody_at_head {c rf rp wf wp segs pre w off junk} :
  dbody c rf rp wf wp segs pre w off junk -> at_head rf rp wf wp segs (hcont pre w junk) (undel pre w off).
Proof. intros [Hn _ _ Hsg Hws [Ho1 Ho2] -> -> Hsm]. exact (layout_at_head rf wf segs pre w off junk Hn Hsg Hws Ho1 Ho2 Hsm). Qed.

Lemma dbody_in_bounds c d segs pre w off junk :
  dbody c (nextReadFileNum d) (nextReadPos d) (writeFileNum d) (writePos d) segs pre w off junk -> in_bounds d.
Proof. intros [Hn _ _ _ _ [Ho1 Ho2] Hr Hw _]. exact (proj1 (layout_in_bounds d pre w off Hn Ho1 Ho2 Hr Hw)). Qed.

Lemma dbody_settled c d' X pre w off junk :
  same_files d' (presync c X) ->
  (dbody c (readFileNum d') (readPos d') (writeFileNum d') (writePos d') (f_segs (fs d')) pre w off junk <->
   dbody c (readFileNum X) (readPos X) (writeFileNum X) (writePos X) (f_segs (fs X)) pre w off junk).
Proof. intros (S1 & S2 & S3 & S4 & S5 & S6 & S7). rewrite S1, S3, S4, S5, S6. autorewrite with dq. reflexivity. Qed.

Lemma dinv_fresh c f X pre w off junk :
  dbody c (readFileNum X) (readPos X) (writeFileNum X) (writePos X) (f_segs (fs X)) pre w off junk ->
  nextReadPos X = readPos X -> nextReadFileNum X = readFileNum X ->
  handle_okk (hcont pre w junk) (rfile X) (N.to_nat (readPos X)) (readFileNum X) ->
  exists d', loop_top c (S f) X = Some d' /\ dinv c d' pre w off junk.
Proof.
  intros B Hp Hf Hh. destruct (loop_fresh c f X _ _ (dbody_at_head B) Hp (fun _ => Hf) Hh) as (d' & E & SF & A).
  exists d'. split; [exact E|]. split; [apply (dbody_settled c d' X), B; exact SF | exact A].
Qed.

Lemma dbody_get {c rf rp wf wp segs pre w off junk m r} rf' rp' :
  dbody c rf rp wf wp segs pre w off junk -> undel pre w off = m :: r ->
  (if c_max c <? rp + 4 + N.of_nat (length m) then rf' = rf + 1 /\ rp' = 0 else rf' = rf /\ rp' = rp + 4 + N.of_nat (length m)) ->
  exists pre' off',
    undel pre' w off' = r /\ dbody c rf' rp' wf wp (if rf =? rf' then segs else seg_del segs rf) pre' w off' junk /\
    (rf' = rf -> pre' = pre).
Proof.
  intros [Hn Hcl Hop Hsg Hws [Ho1 Ho2] -> Hw Hsm] EU Hpos.
  pose proof (layout_get c pre w off m r Hcl Hop Ho1 Ho2 EU) as G. destruct (c_max c <? _); destruct Hpos as [-> ->].
  - replace (rf =? rf + 1) with false by lia. destruct G as (f0 & pre' & -> & Hlast & U & Ho).
    exists pre', 0%nat. split; [exact U|]. split; [|lia]. cbn [length] in Hn. constructor; try assumption.
    + (* db_nums *) lia.
    + (* db_closed *) intros f Hf. apply Hcl. right. exact Hf.
    + (* db_segs *) intros i f Hf. rewrite seg_get_del_other by lia.
      replace (rf + 1 + N.of_nat i) with (rf + N.of_nat (S i)) by lia. apply Hsg. exact Hf.
    + (* db_wseg *) rewrite seg_get_del_other by lia. exact Hws.
    + (* db_off *) split; [lia | exact Ho].
    + (* db_rpos *) reflexivity.
    + (* db_small *) intros x Hx. apply Hsm. cbn [concat]. rewrite <- app_assoc. apply in_or_app. right. exact Hx.
  - rewrite N.eqb_refl. destruct G as (U & G1 & G2). exists pre, (S off). split; [exact U|]. split; [|reflexivity].
    constructor; try assumption. (* db_rpos *) lia.
Qed.

Lemma dinv_get c d pre w off junk m r :
  dinv c d pre w off junk -> undel pre w off = m :: r ->
  exists d' pre' off', loop_top c LOOP_FUEL (move_forward d) = Some d' /\ dinv c d' pre' w off' junk /\ undel pre' w off' = r.
Proof.
  intros [B Hhead] EU. rewrite EU in Hhead.
  destruct (dbody_get (nextReadFileNum d) (nextReadPos d) B EU (ahead_pos c d _ m r Hhead)) as (pre' & off' & U & B' & Hsame).
  pose proof (dbody_in_bounds c d _ _ _ _ _ B') as Hb.
  destruct (loop_get c 63 d _ (hcont pre' w junk) m r (undel pre' w off') Hhead Hb) as (d' & E & SF & A).
  - rewrite move_forward_segs by exact Hb. exact (dbody_at_head B').
  - intros H. rewrite (Hsame H). reflexivity.
  - exists d', pre', off'. split; [exact E|]. split; [split; [|exact A] | exact U].
    apply (dbody_settled c d' (move_forward d)); [exact SF|]. autorewrite with dq. rewrite move_forward_segs by assumption. exact B'.
Qed.

Lemma dinv_drain c junk q : forall d pre w off limit,
  dinv c d pre w off junk -> undel pre w off = q -> (length q <= limit)%nat -> dq_drain c limit d = q.
Proof.
  induction q as [|m q IH]; intros d pre w off limit Hi EU Hl; pose proof (proj2 Hi) as Hh; rewrite EU in Hh.
  - destruct Hh as (Hr & _). destruct limit; cbn [dq_drain]; [|rewrite Hr]; reflexivity.
  - destruct limit as [|limit]; [cbn [length] in Hl; lia|]. destruct Hh as (Hr & Hp & _).
    destruct (dinv_get c d pre w off junk m q Hi EU) as (d' & pre' & off' & E & Hi' & U').
    cbn [dq_drain]. rewrite Hr, E, Hp. f_equal. apply (IH d' pre' w off' limit Hi' U'). cbn [length] in Hl. lia.
Qed.

Definition metaok (f : fsys) (dep : Z) (mrf mrp wf wp : N) : Prop :=
  (exists stale, f_meta f = Some (print_meta dep mrf mrp wf wp ++ stale)) \/
  (f_meta f = None /\ dep = 0%Z /\ mrf = 0 /\ mrp = 0 /\ wf = 0 /\ wp = 0).

Lemma open_state c {f} tr {dep mrf mrp wf wp} :
  metaok f dep mrf mrp wf wp -> dq_open c f tr = loop_top c LOOP_FUEL (opened f tr dep mrf mrp wf wp).
Proof. intros [[stale H]|(H & -> & -> & -> & -> & ->)]; eauto using dq_open_meta, dq_open_nometa. Qed.

(* the file the metadata's read position names is gone: readOne fails, handleReadError moves on to the next file *)
Lemma recover_removed c f dep mrf mrp wf pre w junk :
  metaok f dep mrf mrp wf (N.of_nat (fsize w)) ->
  seg_get (f_segs f) mrf = None -> mrf < wf ->
  dbody c (mrf + 1) 0 wf (N.of_nat (fsize w)) (f_segs f) pre w 0 junk ->
  exists d, dq_open c f [] = Some d /\ dinv c d pre w 0 junk.
Proof.
  intros M Hnone Hlt B. rewrite (open_state c [] M). set (X := opened _ _ _ _ _ _ _).
  unfold LOOP_FUEL. rewrite loop_top_unfold. cbv zeta. autorewrite with dq. cbn [X opened readFileNum writeFileNum readPos nextReadPos].
  replace (mrf <? wf) with true by lia. rewrite N.eqb_refl. cbn [orb].
  assert (Hro : read_one c (presync c X) = RdErr (set_rfile (presync c X) None)).
  { unfold read_one. autorewrite with dq. cbn [X opened rfile fs readFileNum]. rewrite Hnone. reflexivity. }
  rewrite Hro. set (Y := handle_read_error _).
  assert (BY : dbody c (readFileNum Y) (readPos Y) (writeFileNum Y) (writePos Y) (f_segs (fs Y)) pre w 0 junk).
  { cbn [Y handle_read_error set_rfile readFileNum readPos writeFileNum writePos fs]. autorewrite with dq.
    cbn [X opened readFileNum writeFileNum writePos fs]. rewrite Hnone. autorewrite with dq. replace (mrf =? wf) with false by lia. exact B. }
  apply dinv_fresh; [exact BY | reflexivity | reflexivity | exact I].
Qed.

(* Images: what a crash can leave behind.
   E: everything enqueued so far; k: handed to the consumer so far; W: an upper bound on the write file the image's metadata names.
   The image's metadata names a read position that is either where the layout (pre, w, off) starts (in a file that is present)
   or lies in the file before it, which is gone (removed after its last record was delivered, the metadata not yet rewritten). *)
Definition img (c : cfg) (E : list bytes) (k : nat) (W : N) (f : fsys) : Prop :=
  exists rf pre w off junk dep mrf mrp (sr sw : nat),
    metaok f dep mrf mrp (rf + N.of_nat (length pre)) (N.of_nat (fsize w)) /\
    ((mrf = rf /\ mrp = N.of_nat (fpos (headf pre w) off)) \/
     (mrf + 1 = rf /\ seg_get (f_segs f) mrf = None /\ off = 0%nat)) /\
    dbody c rf (N.of_nat (fpos (headf pre w) off)) (rf + N.of_nat (length pre)) (N.of_nat (fsize w)) (f_segs f) pre w off junk /\
    undel pre w off = firstn (sw - sr) (skipn sr E) /\ (sr <= sw)%nat /\ (sr <= k)%nat /\ (sw <= length E)%nat /\
    rf + N.of_nat (length pre) <= W.

Lemma img_recover c E k W f :
  img c E k W f ->
  exists d sr sw, dq_open c f [] = Some d /\ (sr <= sw)%nat /\ (sr <= k)%nat /\ (sw <= length E)%nat /\
    forall limit, (sw - sr <= limit)%nat -> dq_drain c limit d = firstn (sw - sr) (skipn sr E).
Proof.
  intros (rf & pre & w & off & junk & dep & mrf & mrp & sr & sw & M & Hmode & B & U & H1 & H2 & H3 & H4).
  assert (Hrec : exists d, dq_open c f [] = Some d /\ dinv c d pre w off junk).
  { destruct Hmode as [[-> ->]|(Hm & Hnone & ->)].
    - rewrite (open_state c [] M). apply dinv_fresh; [exact B | reflexivity | reflexivity | exact I].
    - apply (recover_removed c f dep mrf mrp _ pre w junk M Hnone); [lia|]. replace (mrf + 1) with rf by lia. exact B. }
  destruct Hrec as (d & Eo & Hi). exists d, sr, sw. do 4 (split; [assumption|]).
  intros limit Hl. apply (dinv_drain c junk _ d pre w off limit Hi U). rewrite firstn_length. lia.
Qed.

Lemma img_grow c E k W f x k' W' : img c E k W f -> (k <= k')%nat -> W <= W' -> img c (E ++ x) k' W' f.
Proof.
  intros (rf & pre & w & off & junk & dep & mrf & mrp & sr & sw & M & Hmode & B & U & H1 & H2 & H3 & H4) Hk HW.
  exists rf, pre, w, off, junk, dep, mrf, mrp, sr, sw. rewrite firstn_skipn_grow, app_length by exact H3.
  do 5 (split; [assumption|]). split; [lia|]. split; lia.
Qed.

Lemma img_mono c E k W f k' W' : img c E k W f -> (k <= k')%nat -> W <= W' -> img c E k' W' f.
Proof. intros H Hk HW. rewrite <- (app_nil_r E). exact (img_grow c E k W f [] k' W' H Hk HW). Qed.

Lemma img_ext c E k W f f' : f_meta f' = f_meta f -> f_segs f' = f_segs f -> img c E k W f -> img c E k W f'.
Proof.
  intros Hm Hs (rf & pre & w & off & junk & dep & mrf & mrp & sr & sw & H).
  exists rf, pre, w, off, junk, dep, mrf, mrp, sr, sw. unfold metaok in *. rewrite Hm, Hs. exact H.
Qed.

(* appending to a file at or beyond the bound changes no image *)
Lemma img_append c E k W f f' j C data :
  img c E k W f -> W <= j -> f_meta f' = f_meta f ->
  seg_get (f_segs f) j = Some C \/ (C = [] /\ seg_get (f_segs f) j = None) ->
  (forall n, seg_get (f_segs f') n = if n =? j then Some (C ++ data) else seg_get (f_segs f) n) ->
  img c E k W f'.
Proof.
  intros (rf & pre & w & off & junk & dep & mrf & mrp & sr & sw & M & Hmode & B & H) HW Hm HC Hs.
  destruct B as [Hn Hcl Hop Hsg Hws Hoff Hr Hw Hsm].
  assert (Hjunk : exists junk', seg_get (f_segs f') (rf + N.of_nat (length pre)) = Some (frames w ++ junk') \/
                                (w = [] /\ seg_get (f_segs f') (rf + N.of_nat (length pre)) = None)).
  { rewrite Hs. destruct (rf + N.of_nat (length pre) =? j) eqn:Ej; [|exists junk; exact Hws].
    apply N.eqb_eq in Ej. rewrite <- Ej in HC. destruct Hws as [Hws|[-> Hws]]; rewrite Hws in HC.
    - exists (junk ++ data). left. destruct HC as [HC|[_ HC]]; [|discriminate]. injection HC as <-. rewrite app_assoc. reflexivity.
    - exists data. left. destruct HC as [HC|[-> _]]; [discriminate | reflexivity]. }
  destruct Hjunk as [junk' Hws'].
  exists rf, pre, w, off, junk', dep, mrf, mrp, sr, sw.
  split; [unfold metaok in *; rewrite Hm; exact M|]. split; [|split; [|exact H]].
  - destruct Hmode as [Hmode|(Hm1 & Hnone & Ho)]; [left; exact Hmode | right]. split; [exact Hm1|]. split; [|exact Ho].
    rewrite Hs. replace (mrf =? j) with false by lia. exact Hnone.
  - constructor; try assumption.
    intros i f0 Hf. assert (i < length pre)%nat by (apply nth_error_Some; congruence).
    rewrite Hs. replace (rf + N.of_nat i =? j) with false by lia. exact (Hsg i f0 Hf).
Qed.

Definition imgs (c : cfg) (E : list bytes) (k : nat) (W : N) (tr : list (N * fsys)) : Prop :=
  forall l f, In (l, f) tr -> img c E k W f.

Lemma imgs_cons c E k W l f tr : img c E k W f -> imgs c E k W tr -> imgs c E k W ((l, f) :: tr).
Proof. intros H1 H2 l' f' [Heq|Hin]; [injection Heq as _ <-; exact H1 | exact (H2 l' f' Hin)]. Qed.

Lemma imgs_grow c E k W tr x k' W' : imgs c E k W tr -> (k <= k')%nat -> W <= W' -> imgs c (E ++ x) k' W' tr.
Proof. intros H Hk HW l f Hin. exact (img_grow c E k W f x k' W' (H l f Hin) Hk HW). Qed.

(* The snapshot in the metadata file, relative to the present layout:
   E = D0 ++ (all messages of the files rf .. wf); the metadata was written when the write file held ws (w = ws ++ wn) and
   offs records of the first file were consumed; file numbers have not changed since (a change is synced at once) *)
Definition lay (f : fsys) (rf wf : N) (E : list bytes) (k : nat) (pre : list (list bytes)) (w : list bytes) (off : nat) : Prop :=
  exists D0 ws wn offs dep,
    E = D0 ++ concat pre ++ w /\ k = (length D0 + off)%nat /\
    w = ws ++ wn /\ (offs <= off)%nat /\ (pre = [] -> (offs <= length ws)%nat) /\
    metaok f dep rf (N.of_nat (fpos (headf pre ws) offs)) wf (N.of_nat (fsize ws)).

Lemma lay_decomp {f rf wf E k pre w off} : lay f rf wf E k pre w off -> exists D0, E = D0 ++ concat pre ++ w /\ k = (length D0 + off)%nat.
Proof. intros (D0 & ws & wn & offs & dep & H1 & H2 & _). exists D0. auto. Qed.

(* one more record in the write file, one more record consumed from the reader's file: the snapshot stays what it was *)
Lemma lay_put {f rf wf E k pre w off} f' m :
  f_meta f' = f_meta f -> lay f rf wf E k pre w off -> lay f' rf wf (E ++ [m]) k pre (w ++ [m]) off.
Proof.
  intros Hm (D0 & ws & wn & offs & dep & H1 & H2 & H3 & H4 & H5 & H6).
  exists D0, ws, (wn ++ [m]), offs, dep. unfold metaok in *. rewrite Hm, H1, H3, <- !app_assoc. auto 7.
Qed.

Lemma lay_get {f rf wf E k pre w off} : lay f rf wf E k pre w off -> lay f rf wf E (S k) pre w (S off).
Proof.
  intros (D0 & ws & wn & offs & dep & H1 & H2 & H3 & H4 & H5 & H6).
  exists D0, ws, wn, offs, dep. do 5 (split; [auto; lia|]). exact H6.
Qed.

(* an earlier snapshot of the same files: fewer records consumed, fewer written to the last file *)
Lemma dbody_cut {c rf rp wf wp segs pre ws wn off offs junk} :
  dbody c rf rp wf wp segs pre (ws ++ wn) off junk -> (offs <= off)%nat -> (pre = [] -> (offs <= length ws)%nat) ->
  dbody c rf (N.of_nat (fpos (headf pre ws) offs)) wf (N.of_nat (fsize ws)) segs pre ws offs (frames wn ++ junk).
Proof.
  intros [Hn Hcl Hop Hsg Hws [Ho1 Ho2] Hr Hw Hsm] Ho Hoe. constructor; try assumption; try reflexivity.
  - unfold fsize in *. rewrite frames_app, app_length in Hop. lia.
  - destruct Hws as [Hws|[Hw0 Hws]]; [left; rewrite Hws, frames_app, <- app_assoc; reflexivity | right].
    apply app_eq_nil in Hw0 as [-> _]. auto.
  - destruct pre as [|f0 pre']; cbn [headf] in *; [split; [auto | intros H; contradiction]|].
    specialize (Ho2 ltac:(discriminate)). split; [lia | intros _; lia].
  - intros m Hm. apply Hsm. rewrite app_assoc. apply in_or_app. left. exact Hm.
Qed.

Lemma skipn_layout pre ws wn offs :
  (offs <= length (headf pre ws))%nat ->
  skipn offs (concat pre ++ ws ++ wn) = undel pre ws offs ++ wn.
Proof.
  intros H. destruct pre as [|f0 pre']; cbn [headf undel concat app] in *.
  - apply skipn_app_le. exact H.
  - rewrite <- !app_assoc. rewrite skipn_app_le by exact H. reflexivity.
Qed.

(* the live layout with a snapshot of it in the metadata file is an image, in either mode *)
Lemma sbody_img {c E k f rf rp wf wp dep0 pre ws wn off} offs D0 {dep mrf mrp} :
  sbody c rf rp wf wp dep0 (f_segs f) pre (ws ++ wn) off ->
  E = D0 ++ concat pre ++ ws ++ wn -> k = (length D0 + off)%nat -> (offs <= off)%nat -> (pre = [] -> (offs <= length ws)%nat) ->
  metaok f dep mrf mrp wf (N.of_nat (fsize ws)) ->
  (mrf = rf /\ mrp = N.of_nat (fpos (headf pre ws) offs) \/ mrf + 1 = rf /\ seg_get (f_segs f) mrf = None /\ offs = 0%nat) ->
  img c E k wf f.
Proof.
  intros B -> -> Ho Hoe M Hmode.
  pose proof (dbody_cut (sbody_dbody B) Ho Hoe) as B'. pose proof B' as [Hn _ _ _ _ [Hf1 _] _ _ _]. rewrite Hn in *.
  pose proof (skipn_layout pre ws wn offs Hf1) as Hsk.
  exists rf, pre, ws, offs, (frames wn ++ []), dep, mrf, mrp, (length D0 + offs)%nat, (length D0 + offs + length (undel pre ws offs))%nat.
  do 3 (split; [assumption|]). split.
  { rewrite <- skipn_skipn', skipn_app, Nat.sub_diag, skipn_all. cbn [app skipn]. rewrite Hsk.
    replace (length D0 + offs + length (undel pre ws offs) - (length D0 + offs))%nat with (length (undel pre ws offs)) by lia.
    rewrite firstn_app, Nat.sub_diag, firstn_all. cbn [firstn]. rewrite app_nil_r. reflexivity. }
  pose proof (headf_length pre ws) as Hhl.
  apply (f_equal (@length _)) in Hsk. rewrite skipn_length in Hsk. rewrite !app_length in *.
  split; [lia|]. split; [lia|]. split; lia.
Qed.

Lemma lay_img {c E k f rf rp wf wp dep pre w off} :
  sbody c rf rp wf wp dep (f_segs f) pre w off -> lay f rf wf E k pre w off -> img c E k wf f.
Proof.
  intros B (D0 & ws & wn & offs & dep' & HE & Hk & -> & Ho & Hoe & M).
  apply (sbody_img offs D0 B HE Hk Ho Hoe M). left. auto.
Qed.

(* persistMetaData: the new metadata is a snapshot of the present layout, and both file systems it passes through are images *)
Lemma sync_images {c E k f rf rp wf wp dep pre w off} D0 {txt} stale :
  sbody c rf rp wf wp dep (f_segs f) pre w off -> E = D0 ++ concat pre ++ w -> k = (length D0 + off)%nat ->
  txt = print_meta dep rf rp wf wp ++ stale -> img c E k wf f ->
  lay (fs_meta f txt) rf wf E k pre w off /\ img c E k wf (fs_meta f txt) /\ img c E k wf (fs_tmp f txt).
Proof.
  intros B HE Hk Ht Hi. pose proof B as [_ _ _ _ _ _ [Ho _] Hr Hw _ _].
  assert (L : lay (fs_meta f txt) rf wf E k pre w off).
  { exists D0, w, [], off, dep. rewrite app_nil_r. do 4 (split; [auto|]). split; [intros ->; exact Ho|].
    left. exists stale. cbn [fs_meta f_meta]. rewrite Ht, <- Hr, <- Hw. reflexivity. }
  split; [exact L|]. split; [exact (lay_img (f := fs_meta f txt) B L) | apply (img_ext c E k wf f); auto].
Qed.

(* sync: an fsync of the write file if it is open (the files stay as they are), then persistMetaData *)
Lemma do_sync_images c Y E k pre w off :
  sbody c (readFileNum Y) (readPos Y) (writeFileNum Y) (writePos Y) (depth Y) (f_segs (fs Y)) pre w off ->
  (exists D0, E = D0 ++ concat pre ++ w /\ k = (length D0 + off)%nat) ->
  img c E k (writeFileNum Y) (fs Y) -> imgs c E k (writeFileNum Y) (trace Y) ->
  lay (fs (do_sync Y)) (readFileNum Y) (writeFileNum Y) E k pre w off /\ imgs c E k (writeFileNum Y) (trace (do_sync Y)).
Proof.
  intros B (D0 & HE & Hk) Himg Htr. rewrite do_sync_fs, do_sync_trace. destruct (meta_text_stale Y) as [stale Hst].
  destruct (sync_images D0 stale B HE Hk Hst Himg) as (L & I2 & I1).
  split; [exact L|]. do 2 (apply imgs_cons; [assumption|]). destruct (wopen Y); [apply imgs_cons; assumption | exact Htr].
Qed.

(* the pwrite of writeOne: to the old metadata, the write file has merely grown *)
Lemma img_written c d E k pre w off m :
  sbody c (readFileNum d) (readPos d) (writeFileNum d) (writePos d) (depth d) (f_segs (fs d)) pre w off ->
  lay (fs d) (readFileNum d) (writeFileNum d) E k pre w off ->
  img c (E ++ [m]) k (writeFileNum d) (fs_written d m).
Proof.
  intros B L. pose proof B as [_ _ _ _ HC _ _ _ Hw _ _].
  apply (img_append c _ k _ (fs d) _ (writeFileNum d) (frames w) (frame m)).
  - apply (img_grow c E k (writeFileNum d)); [exact (lay_img B L) | lia | lia].
  - lia.
  - reflexivity.
  - destruct HC as [HC|[-> HC]]; auto.
  - exact (fs_written_get d m w HC Hw).
Qed.

(* the reader has left the file f0 and removed it: the metadata names it until the sync that follows, and recovery
   will move on to the next file, whose first record is the first one not handed over *)
Lemma img_removed {c E k f rf rp wf wp dep rf' rp' dep' f0 pre' w off} :
  sbody c rf rp wf wp dep (f_segs f) (f0 :: pre') w off -> S off = length f0 ->
  lay f rf wf E k (f0 :: pre') w off -> sorted_from 0 (f_segs f) ->
  sbody c rf' rp' wf wp dep' (seg_del (f_segs f) rf) pre' w 0 ->
  (exists D0, E = D0 ++ concat pre' ++ w /\ S k = (length D0 + 0)%nat) /\ img c E (S k) wf (with_segs f (seg_del (f_segs f) rf)).
Proof.
  intros [Hn _ _ _ _ _ _ _ _ _ _] Hlast (D0 & ws & wn & offs & md & HE & Hk & -> & Ho & Hoe & M) Hsort B'.
  pose proof B' as [Hn' _ _ _ _ _ _ _ _ _ _]. cbn [length] in Hn.
  assert (HE' : E = (D0 ++ f0) ++ concat pre' ++ ws ++ wn) by (rewrite HE; cbn [concat]; rewrite <- !app_assoc; reflexivity).
  assert (Hk' : S k = (length (D0 ++ f0) + 0)%nat) by (rewrite app_length; lia).
  split; [exists (D0 ++ f0); auto|].
  apply (sbody_img (f := with_segs f _) 0%nat (D0 ++ f0) B' HE' Hk' (Nat.le_0_l 0) (fun _ => Nat.le_0_l _) M).
  right. split; [lia|]. split; [apply (seg_get_del_same 0); exact Hsort | reflexivity].
Qed.

(* The invariant of a running queue with its history: E everything enqueued so far, k of it handed over.  The state is a
   layout (sinv) whose metadata snapshot lags behind it as lay allows, and every file system the trace has recorded, one per
   mutation since the queue was first opened, is an image: whichever of them a crash leaves, img_recover applies. *)
Definition cinv (c : cfg) (d : dq) (E : list bytes) (k : nat) : Prop :=
  exists pre w off,
    sinv c d pre w off /\ lay (fs d) (readFileNum d) (writeFileNum d) E k pre w off /\ sorted_from 0 (f_segs (fs d)) /\
    imgs c E k (writeFileNum d) (trace d).

(* Every operation is some mutations of its own, leading to a state X, and then a pass through the loop: a sync
   when one is due, after which the snapshot is the present state, and the read-ahead.  Unless X has just changed the
   reader's file (then a sync is due), X still has the old snapshot. *)
Lemma cinv_step c X d' E k pre w off :
  sinv c d' pre w off -> same_files d' (presync c X) ->
  (lay (fs X) (readFileNum X) (writeFileNum X) E k pre w off \/
   (needSync X = true /\ (exists D0, E = D0 ++ concat pre ++ w /\ k = (length D0 + off)%nat) /\ img c E k (writeFileNum X) (fs X))) ->
  imgs c E k (writeFileNum X) (trace X) -> sorted_from 0 (f_segs (fs X)) ->
  cinv c d' E k.
Proof.
  intros Hi SF Hlay Htr Hsort.
  pose proof (proj1 (sbody_settled c d' X pre w off SF) (proj1 Hi)) as B.
  assert (H : lay (fs (presync c X)) (readFileNum X) (writeFileNum X) E k pre w off /\
              imgs c E k (writeFileNum X) (trace (presync c X))).
  { unfold presync. destruct (sync_due c X) eqn:Es.
    - apply (do_sync_images c (ticked c X)); [exact B | | | exact Htr].
      + destruct Hlay as [L|(_ & HD & _)]; [exact (lay_decomp L) | exact HD].
      + destruct Hlay as [L|(_ & _ & Himg)]; [exact (lay_img B L) | exact Himg].
    - unfold sync_due in Es. apply orb_false_iff in Es as [Es _]. destruct Hlay as [Hlay|[Hns _]]; [auto | congruence]. }
  destruct H as [L T]. destruct SF as (S1 & S2 & S3 & S4 & _). autorewrite with dq in S3, S4.
  exists pre, w, off. rewrite S1, S2, S3, S4, presync_segs. auto 6.
Qed.

Lemma cinv_tick c d E k :
  cinv c d E k -> exists d', loop_top c LOOP_FUEL (set_needsync d true) = Some d' /\ cinv c d' E k.
Proof.
  intros (pre & w & off & Hi & L & Hsort & Htr). destruct (sinv_tick c d pre w off Hi) as (d' & E1 & Hi' & SF).
  exists d'. split; [exact E1|]. apply (cinv_step c (set_needsync d true) d' E k pre w off Hi' SF); auto.
Qed.

(* a clean restart inside the history: Close persists the metadata (two more crash points), NewDiskQueue reads it back *)
Lemma cinv_reopen c d E k :
  cinv c d E k -> exists d', dq_open c (fs (dq_close d)) (trace (dq_close d)) = Some d' /\ cinv c d' E k.
Proof.
  intros (pre & w & off & Hi & L & Hsort & Htr). destruct (sinv_reopen c d pre w off Hi) as (d' & E1 & Hi' & SF).
  exists d'. split; [exact E1|].
  destruct (lay_decomp L) as (D0 & HE & Hk). destruct (meta_text_stale d) as [stale Hst].
  destruct (sync_images D0 stale (proj1 Hi) HE Hk Hst (lay_img (proj1 Hi) L)) as (L' & Hi2 & Hi1).
  apply (cinv_step c _ d' E k pre w off Hi' SF); auto.
  cbn [opened trace]. rewrite dq_close_trace. do 2 (apply imgs_cons; [assumption|]). exact Htr.
Qed.

Lemma cinv_put c d E k m :
  cinv c d E k -> small m ->
  exists d', loop_top c LOOP_FUEL (write_one c d m) = Some d' /\ cinv c d' (E ++ [m]) k.
Proof.
  intros (pre & w & off & Hi & L & Hsort & Htr) Hm. pose proof Hi as [B _].
  destruct (sinv_put c d pre w off m Hi Hm) as (d' & pre' & w' & E1 & Hi' & _ & Hshape & SF).
  exists d'. split; [exact E1|].
  pose proof (proj1 (sbody_settled c d' _ pre' w' off SF) (proj1 Hi')) as BX. autorewrite with dq in BX.
  pose proof (img_written c d E k pre w off m B L) as Ifw.
  assert (Hsort' : sorted_from 0 (f_segs (fs (write_one c d m)))).
  { rewrite write_one_segs. unfold fs_written, with_segs. cbn [f_segs]. rewrite <- (N.min_0_l (writeFileNum d)). apply sorted_from_set. exact Hsort. }
  destruct (rolls c d m) eqn:Eroll; destruct Hshape as [-> ->].
  - (* roll-over: writeOne has synced, the snapshot is the new, empty file *)
    assert (Ifw' : img c (E ++ [m]) k (writeFileNum d + 1) (fs_written d m)) by (apply (img_mono c _ k (writeFileNum d)); [exact Ifw | lia | lia]).
    assert (Htr' : imgs c (E ++ [m]) k (writeFileNum d + 1) (trace d)) by (apply (imgs_grow c E k (writeFileNum d)); [exact Htr | lia | lia]).
    destruct (do_sync_images c (rolled (appended d m)) (E ++ [m]) k (pre ++ [w ++ [m]]) [] off BX) as [L' T'];
      [| exact Ifw' | apply imgs_cons; [exact Ifw' | exact Htr'] |].
    { rewrite concat_roll. exact (lay_decomp (lay_put (fs_written d m) m eq_refl L)). }
    (* the last two rewrites make the goals L' and T' as written: left to exact, the states are compared by unfolding them, at seconds a time *)
    apply (cinv_step c (write_one c d m) d' _ k _ _ off Hi' SF); try assumption;
      rewrite ?write_one_readFileNum, ?write_one_writeFileNum, write_one_eq, Eroll, ?wclosed_fs, ?wclosed_trace; [left; exact L' | exact T'].
  - (* the snapshot is the old one: what has been written since is one record more *)
    assert (Htr' : imgs c (E ++ [m]) k (writeFileNum d) (trace d)) by (apply (imgs_grow c E k (writeFileNum d)); [exact Htr | lia | lia]).
    apply (cinv_step c (write_one c d m) d' _ k _ _ off Hi' SF); try assumption;
      rewrite ?write_one_readFileNum, ?write_one_writeFileNum, write_one_eq, Eroll.
    + left. exact (lay_put (fs_written d m) m eq_refl L).
    + apply imgs_cons; [exact Ifw | exact Htr'].
Qed.

Lemma cinv_get c d E k :
  cinv c d E k -> ready d = true -> exists d', loop_top c LOOP_FUEL (move_forward d) = Some d' /\ cinv c d' E (S k).
Proof.
  intros (pre & w & off & Hi & L & Hsort & Htr) Hr. pose proof Hi as [B Hh]. rewrite head_ok_ahead in Hh.
  destruct (undel pre w off) as [|m r] eqn:EU; [destruct Hh as (Hr' & _); congruence|].
  destruct (sinv_get c d pre w off m r Hi EU) as (d' & pre' & off' & E1 & Hi' & _ & SF & Hshape).
  exists d'. split; [exact E1|].
  pose proof (proj1 (sbody_settled c d' _ pre' w off' SF) (proj1 Hi')) as BX.
  cbn [advance readFileNum readPos writeFileNum writePos depth fs] in BX.
  assert (Htr' : imgs c E (S k) (writeFileNum d) (trace d))
    by (intros l f Hin; apply (img_mono c E k (writeFileNum d)); [exact (Htr l f Hin) | lia | lia]).
  destruct (readFileNum d =? nextReadFileNum d) eqn:Hch; cbn [negb] in BX.
  - (* the next record of the same file *)
    destruct Hshape as [-> ->]. pose proof Hch as Hnf. apply N.eqb_eq in Hnf.
    apply (cinv_step c (advance d) d' E (S k) pre w (S off) Hi' SF); cbn [advance fs trace readFileNum writeFileNum needSync];
      rewrite ?Hch; cbn [negb andb]; try assumption.
    left. rewrite <- Hnf. exact (lay_get L).
  - (* the file is finished: it is removed, and a sync is due *)
    destruct Hshape as [(f0 & -> & Hlast) ->].
    assert (Hs0 : seg_get (f_segs (fs d)) (readFileNum d) = Some (frames f0))
      by (destruct B as [_ _ _ Hsg _ _ _ _ _ _ _]; rewrite <- (N.add_0_r (readFileNum d)); apply (Hsg 0%nat); reflexivity).
    destruct (img_removed B Hlast L Hsort BX) as [HD IX].
    apply (cinv_step c (advance d) d' E (S k) pre' w 0 Hi' SF); cbn [advance fs trace readFileNum writeFileNum needSync];
      rewrite ?Hch, ?Hs0; cbn [negb andb]; try assumption.
    + right. split; [apply orb_true_r|]. split; assumption.
    + apply imgs_cons; assumption.
    + apply sorted_from_del. exact Hsort.
Qed.

Fixpoint nr_small (ops : list dop) : bool :=
  match ops with
  | [] => true
  | Put m :: r => (N.of_nat (length m) <? 2147483648) && nr_small r
  | CloseReopen :: _ => false
  | _ :: r => nr_small r
  end.

Lemma nr_small_smallops ops : nr_small ops = true -> smallops ops = true.
Proof.
  induction ops as [|o ops IH]; [reflexivity|]. destruct o; cbn [nr_small smallops]; try exact IH; try discriminate.
  intros H. apply andb_true_iff in H as [H1 H2]. rewrite H1, (IH H2). reflexivity.
Qed.

Lemma fits_nr_small c ops : forall wp, fits_nr c wp ops = true -> nr_small ops = true.
Proof.
  induction ops as [|[m| | |] ops IH]; intros wp; cbn [fits_nr nr_small]; auto; try apply IH.
  intros H. apply andb_true_iff in H as [H H3]. apply andb_true_iff in H as [-> _]. exact (IH _ H3).
Qed.

(* the number of messages a run has handed to the consumer *)
Fixpoint delivered (outs : list dout) : nat :=
  match outs with
  | [] => 0%nat
  | OGet (Some _) :: r => S (delivered r)
  | _ :: r => delivered r
  end.

Theorem run_cinv c ops : forall d E k,
  cinv c d E k -> smallops ops = true ->
  exists d', snd (dq_run c (Some d) ops) = Some d' /\
             cinv c d' (E ++ puts ops) (k + delivered (fst (dq_run c (Some d) ops)))%nat.
Proof.
  induction ops as [|o ops IH]; intros d E k Hi F.
  - exists d. cbn. rewrite app_nil_r, Nat.add_0_r. auto.
  - rewrite dq_run_cons. destruct o as [m| | |]; cbn [smallops] in F; cbn [dq_step puts fst snd delivered].
    + apply andb_true_iff in F as [F1 F2].
      destruct (cinv_put c d E k m Hi ltac:(unfold small; lia)) as (d1 & E1 & Hi1).
      rewrite E1. change (m :: puts ops) with ([m] ++ puts ops). rewrite app_assoc. exact (IH d1 (E ++ [m]) k Hi1 F2).
    + destruct (ready d) eqn:Hr; cbn [fst snd delivered]; [|exact (IH d E k Hi F)].
      destruct (cinv_get c d E k Hi Hr) as (d1 & E1 & Hi1). rewrite E1, <- Nat.add_succ_comm. exact (IH d1 E (S k) Hi1 F).
    + destruct (cinv_tick c d E k Hi) as (d1 & E1 & Hi1). rewrite E1. exact (IH d1 E k Hi1 F).
    + destruct (cinv_reopen c d E k Hi) as (d1 & E1 & Hi1). rewrite E1. exact (IH d1 E k Hi1 F).
Qed.

Lemma open_cinv c : exists d, dq_open c fs_empty [] = Some d /\ cinv c d [] 0.
Proof.
  destruct (sinv_open_empty c) as (d & E & Hi & SF). exists d. split; [exact E|].
  apply (cinv_step c _ d [] 0 [] [] 0 Hi SF).
  - left. exists [], [], [], 0%nat, 0%Z. repeat split; try lia. right. repeat split; reflexivity.
  - intros l f [].
  - exact I.
Qed.

Lemma cinv_k_le c d E k : cinv c d E k -> (k <= length E)%nat.
Proof.
  intros (pre & w & off & [[_ _ _ _ _ _ [Ho _] _ _ _ _] _] & (D0 & ws & wn & offs & dep & -> & -> & _) & _).
  pose proof (headf_length pre w). rewrite app_length. lia.
Qed.

(* Every file-system state a history passed through is recovered by NewDiskQueue without panic into a queue whose
   complete drain is a run E[sr .. sw) of the enqueued messages, sr at most the number of messages the history has
   handed to the consumer: only messages consumed since the snapshot's sync are delivered again. *)
Theorem crash_recovery_delivered c ops limit :
  smallops ops = true -> (length (puts ops) <= limit)%nat ->
  exists dfin,
    snd (dq_run c (dq_open c fs_empty []) ops) = Some dfin /\
    (delivered (fst (dq_run c (dq_open c fs_empty []) ops)) <= length (puts ops))%nat /\
    forall l f, In (l, f) (trace dfin) ->
      exists sr sw d,
        (sr <= sw)%nat /\ (sw <= length (puts ops))%nat /\
        (sr <= delivered (fst (dq_run c (dq_open c fs_empty []) ops)))%nat /\
        dq_open c f [] = Some d /\
        dq_drain c limit d = firstn (sw - sr) (skipn sr (puts ops)).
Proof.
  intros F Hl. destruct (open_cinv c) as (d0 & E0 & I0). rewrite E0.
  destruct (run_cinv c ops d0 [] 0 I0 F) as (dfin & R & Hi). cbn [app Nat.add] in Hi.
  exists dfin. split; [exact R|]. split; [exact (cinv_k_le c dfin _ _ Hi)|].
  intros l f Hin. destruct Hi as (pre & w & off & _ & _ & _ & Htr).
  destruct (img_recover c _ _ _ f (Htr l f Hin)) as (d & sr & sw & Eo & H1 & H2 & H3 & Hd).
  exists sr, sw, d. repeat split; try assumption. apply Hd. lia.
Qed.

(* the same with the count left open, as C08 states it *)
Theorem crash_recovery_all c ops limit :
  smallops ops = true -> (length (puts ops) <= limit)%nat ->
  exists dfin kfin,
    snd (dq_run c (dq_open c fs_empty []) ops) = Some dfin /\ (kfin <= length (puts ops))%nat /\
    forall l f, In (l, f) (trace dfin) ->
      exists sr sw d,
        (sr <= sw)%nat /\ (sw <= length (puts ops))%nat /\ (sr <= kfin)%nat /\
        dq_open c f [] = Some d /\
        dq_drain c limit d = firstn (sw - sr) (skipn sr (puts ops)).
Proof.
  intros F Hl. destruct (crash_recovery_delivered c ops limit F Hl) as (dfin & R & Hk & H).
  exists dfin, (delivered (fst (dq_run c (dq_open c fs_empty []) ops))). auto.
Qed.

Theorem crash_recovery_segments c ops limit :
  nr_small ops = true -> (length (puts ops) <= limit)%nat ->
  exists dfin kfin,
    snd (dq_run c (dq_open c fs_empty []) ops) = Some dfin /\ (kfin <= length (puts ops))%nat /\
    forall l f, In (l, f) (trace dfin) ->
      exists sr sw d,
        (sr <= sw)%nat /\ (sw <= length (puts ops))%nat /\ (sr <= kfin)%nat /\
        dq_open c f [] = Some d /\
        dq_drain c limit d = firstn (sw - sr) (skipn sr (puts ops)).
Proof. intros F. apply crash_recovery_all. apply nr_small_smallops. exact F. Qed.
