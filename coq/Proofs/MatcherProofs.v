(* C03: Match is the documented conjunction provided the static prefix derived
   from a regex is sound; PreMatch is a necessary condition; the aggregator's
   match cache is transparent. *)
From CRNG Require Import Base.Bytes Model.Matcher.

Lemma if_false_andb (a b : bool) : (if a then false else b) = negb a && b.
Proof. destruct a; reflexivity. Qed.

(* PreMatch, a chain of early returns, as a conjunction: the four literal options and the static prefix of the regex *)
Lemma pre_match_conj m s :
  pre_match m s =
  negb (nonempty (m_prefix m) && negb (has_prefix (m_prefix m) s))
  && negb (nonempty (m_notPrefix m) && has_prefix (m_notPrefix m) s)
  && negb (nonempty (m_sub m) && negb (contains (m_sub m) s))
  && negb (nonempty (m_notSub m) && contains (m_notSub m) s)
  && match m_regex m with
     | Some r => negb (nonempty (regex_to_prefix (rx_src r)) && negb (has_prefix (regex_to_prefix (rx_src r)) s))
     | None => true
     end.
Proof. unfold pre_match. rewrite !if_false_andb, !andb_assoc. reflexivity. Qed.

Section WithSearch.
  Variable search : rx -> bytes -> bool.

  (* soundness of the prefix shortcut for the regexes of a matcher *)
  Definition prefix_sound (r : rx) : Prop :=
    forall s, search r s = true -> has_prefix (regex_to_prefix (rx_src r)) s = true.

  Definition opt_sound (o : option rx) : Prop := match o with Some r => prefix_sound r | None => True end.

  Lemma nonempty_false_prefix p s : nonempty p = false -> has_prefix p s = true.
  Proof. destruct p; [reflexivity|discriminate]. Qed.

  (* with a sound prefix, the prefix test before a regex search decides nothing *)
  Lemma regex_shortcut o s :
    opt_sound o ->
    match o with
    | Some r => (nonempty (regex_to_prefix (rx_src r)) && negb (has_prefix (regex_to_prefix (rx_src r)) s)) || negb (search r s)
    | None => false
    end = negb (match o with Some r => search r s | None => true end).
  Proof.
    destruct o as [r|]; [|reflexivity]. intros H.
    destruct (search r s) eqn:Es; [|apply orb_true_r]. rewrite (H s Es), andb_false_r. reflexivity.
  Qed.

  Lemma notregex_shortcut o s :
    opt_sound o ->
    match o with
    | Some r => (negb (nonempty (regex_to_prefix (rx_src r))) || has_prefix (regex_to_prefix (rx_src r)) s) && search r s
    | None => false
    end = match o with Some r => search r s | None => false end.
  Proof.
    destruct o as [r|]; [|reflexivity]. intros H.
    destruct (search r s) eqn:Es; [|apply andb_false_r]. rewrite (H s Es), orb_true_r. reflexivity.
  Qed.

  Theorem match_is_conjunction m s :
    opt_sound (m_regex m) -> opt_sound (m_notRegex m) ->
    matcher_match search m s = spec_accept search m s.
  Proof.
    intros H1 H2. unfold matcher_match, spec_accept.
    rewrite (regex_shortcut _ s H1), (notregex_shortcut _ s H2).
    (* a chain of "if test then false else ..." is the conjunction of the negated tests *)
    rewrite !if_false_andb, !negb_andb, !negb_involutive, andb_true_r, !andb_assoc. reflexivity.
  Qed.

  Theorem prematch_necessary m s :
    opt_sound (m_regex m) ->
    pre_match m s = false -> spec_accept search m s = false.
  Proof.
    intros H1. rewrite pre_match_conj. unfold spec_accept. rewrite !negb_andb, !negb_involutive.
    (* the four literal tests are shared, and a successful search implies the prefix test *)
    rewrite <- !not_true_iff_false, !andb_true_iff. intros Hpre [[HL HR] _]. apply Hpre. split; [exact HL|].
    destruct (m_regex m) as [r|]; [|reflexivity]. rewrite (H1 s HR), andb_false_r. reflexivity.
  Qed.

  (* the per-aggregator match cache; f is what matchWithCache computes on a miss (MatchRegexAndExpand) *)
  Variable A : Type.
  Variable f : bytes -> A.

  Definition cache := list (bytes * A).
  Fixpoint cache_get (c : cache) (k : bytes) : option A :=
    match c with [] => None | (k', v) :: c' => if beqb k k' then Some v else cache_get c' k end.

  Definition cached_lookup (c : cache) (k : bytes) : cache * A :=
    match cache_get c k with
    | Some v => (c, v)
    | None => ((k, f k) :: c, f k)
    end.

  (* operations: a lookup, or an expiry sweep that deletes any subset of entries *)
  Inductive cop := Lookup (k : bytes) | Expire (keep : bytes -> bool).

  Definition cstep (c : cache) (o : cop) : cache * option A :=
    match o with
    | Lookup k => let '(c', v) := cached_lookup c k in (c', Some v)
    | Expire keep => (filter (fun e => keep (fst e)) c, None)
    end.

  Definition cache_inv (c : cache) : Prop := forall k v, In (k, v) c -> v = f k.

  Lemma cache_get_in c k v : cache_get c k = Some v -> In (k, v) c.
  Proof.
    induction c as [|[k' v'] c IH]; simpl; [discriminate|].
    destruct (beqb_spec k k') as [->|_]; [intros [= ->]; left; reflexivity | right; auto].
  Qed.

  Lemma cstep_inv c o : cache_inv c -> cache_inv (fst (cstep c o)).
  Proof.
    intros Hi. destruct o as [k|keep]; simpl.
    - unfold cached_lookup. destruct (cache_get c k); simpl; [exact Hi|].
      intros k' v [H|H]; [inversion H; reflexivity|apply Hi; exact H].
    - intros k v H. apply filter_In in H as [H _]. apply Hi; exact H.
  Qed.

  Lemma cstep_out c k : cache_inv c -> snd (cstep c (Lookup k)) = Some (f k).
  Proof.
    intros Hi. simpl. unfold cached_lookup. destruct (cache_get c k) eqn:G; simpl; [|reflexivity].
    f_equal. apply Hi, cache_get_in, G.
  Qed.

  Fixpoint crun (c : cache) (ops : list cop) : list (option A) :=
    match ops with
    | [] => []
    | o :: ops' => snd (cstep c o) :: crun (fst (cstep c o)) ops'
    end.

  Definition spec_out (o : cop) : option A :=
    match o with Lookup k => Some (f k) | Expire _ => None end.

  (* every lookup in every history of lookups and expiry sweeps returns the uncached value *)
  Theorem cache_run_transparent ops : forall c, cache_inv c -> crun c ops = map spec_out ops.
  Proof.
    induction ops as [|o ops IH]; intros c Hi; simpl; [reflexivity|].
    rewrite (IH _ (cstep_inv c o Hi)). f_equal.
    destruct o as [k|keep]; [apply cstep_out; exact Hi | reflexivity].
  Qed.
End WithSearch.
