(* C05: the buffered writer never loses, duplicates or reorders a byte; Write terminates under the io.Writer contract. *)
From CRNG Require Import Base.ListX Base.Bytes Model.BufWriter.
Local Open Scope nat_scope.

Definition stream (b : bw) : bytes := bw_out b ++ bw_buf b.        (* accepted by the endpoint so far, then still buffered *)

(* the io.Writer contract of the underlying writer: "n < len(p) implies an error" *)
Definition contract (s : list wresp) : Prop := forall r e, In (r, e) s -> e = false -> r = None.

(* a healthy connection takes everything, without error *)
Definition healthy (s : list wresp) : Prop := forall r e, In (r, e) s -> e = false /\ r = None.

Lemma healthy_contract s : healthy s -> contract s.
Proof. intros H r e Hi _. apply (H r e Hi). Qed.

Lemma contract_incl s s' : incl s' s -> contract s -> contract s'.
Proof. intros Hi Hc r e Hr. exact (Hc r e (Hi _ Hr)). Qed.

Lemma healthy_incl s s' : incl s' s -> healthy s -> healthy s'.
Proof. intros Hi Hh r e Hr. exact (Hh r e (Hi _ Hr)). Qed.

Lemma under_write_spec b p n e b1 :
  under_write b p = (n, e, b1) ->
  n <= length p /\ bw_out b1 = bw_out b ++ firstn n p /\ bw_cap b1 = bw_cap b /\
  incl (bw_script b1) (bw_script b) /\
  (contract (bw_script b) -> e = false -> n = length p) /\
  (healthy (bw_script b) -> e = false /\ n = length p).
Proof.
  unfold under_write, next_resp. destruct (bw_script b) as [|[[k|] e0] s]; intros [= <- <- <-]; cbn;
    repeat apply conj; auto using incl_refl, incl_tl, Nat.le_min_r.
  - intros Hc ->. discriminate (Hc (Some k) false (or_introl eq_refl) eq_refl).
  - intros Hh. destruct (Hh (Some k) e0 (or_introl eq_refl)) as [_ [=]].
  - intros Hh. split; [apply (Hh None e0 (or_introl eq_refl))|reflexivity].
Qed.

Lemma flush_spec b b' e :
  bw_flush b = (b', e) ->
  stream b' = stream b /\ bw_cap b' = bw_cap b /\ length (bw_buf b') <= length (bw_buf b) /\
  bw_err b' = e /\ (e = false -> bw_buf b' = []) /\ incl (bw_script b') (bw_script b) /\
  (healthy (bw_script b) -> bw_err b = false -> e = false).
Proof.
  unfold bw_flush, stream.
  destruct (bw_err b) eqn:EE; [intros [= <- <-]; repeat apply conj; auto using incl_refl; discriminate|].
  destruct (bw_buf b) as [|c buf] eqn:EB; [intros [= <- <-]; rewrite EB; repeat apply conj; auto using incl_refl|].
  destruct (under_write b (c :: buf)) as [[n e0] b1] eqn:EU.
  apply under_write_spec in EU as (Hn & Ho & Hc & Hi & _ & Hh).
  destruct (e0 || (n <? length (c :: buf))) eqn:E1; intros [= <- <-]; cbn [bw_out bw_buf bw_cap bw_err bw_script].
  - rewrite Ho, <- app_assoc, firstn_skipn, skipn_length. repeat apply conj; auto; try lia.
    intros H _. destruct (Hh H) as [-> ->]. rewrite Nat.ltb_irrefl in E1. discriminate.
  - apply orb_false_iff in E1 as [_ E1]. apply Nat.ltb_ge in E1.
    rewrite Ho, firstn_all2, app_nil_r by exact E1. repeat apply conj; auto. cbn [length]. lia.
Qed.

(* b' is a later state of the writer b, k more bytes of p having gone into the stream.  It holds of every turn of Write's
   loop and of its exit, whatever the underlying writer answers, and composes: so it holds of Write. *)
Definition advances (b : bw) (p : bytes) (k : nat) (b' : bw) : Prop :=
  k <= length p /\ stream b' = stream b ++ firstn k p /\ bw_cap b' = bw_cap b /\
  (length (bw_buf b) <= bw_cap b -> length (bw_buf b') <= bw_cap b') /\
  incl (bw_script b') (bw_script b) /\
  (healthy (bw_script b) -> bw_err b = false -> bw_err b' = false).

Lemma advances_refl b p : advances b p 0 b.
Proof. unfold advances. cbn [firstn]. rewrite app_nil_r. repeat apply conj; auto using incl_refl, Nat.le_0_l. Qed.

Lemma advances_trans b p k b1 k' b' : advances b p k b1 -> advances b1 (skipn k p) k' b' -> advances b p (k + k') b'.
Proof.
  intros (Hk & Hs & Hc & Hl & Hi & He) (Hk' & Hs' & Hc' & Hl' & Hi' & He'). rewrite skipn_length in Hk'.
  repeat apply conj.
  - lia.
  - rewrite Hs', Hs, <- app_assoc, <- firstn_add_skipn. reflexivity.
  - congruence.
  - auto.
  - exact (incl_tran Hi' Hi).
  - intros Hh E. exact (He' (healthy_incl _ _ Hi Hh) (He Hh E)).
Qed.

(* Write as a loop: its condition, and one turn *)
Definition loops (b : bw) (p : bytes) : bool := Nat.ltb (avail b) (length p) && negb (bw_err b).

(* the writer after the turn, and how many bytes of p it has taken *)
Definition write_round (b : bw) (p : bytes) : bw * nat :=
  match bw_buf b with
  | [] => let '(n, e, b1) := under_write b p in
          ({| bw_cap := bw_cap b1; bw_buf := []; bw_err := e; bw_out := bw_out b1; bw_script := bw_script b1 |}, n)
  | _ => (fst (bw_flush {| bw_cap := bw_cap b; bw_buf := bw_buf b ++ firstn (avail b) p; bw_err := bw_err b;
                           bw_out := bw_out b; bw_script := bw_script b |}), avail b)
  end.

Lemma bw_write_eq fuel b p nn :
  bw_write fuel b p nn =
  if loops b p then
    match fuel with
    | O => None
    | S f => let '(b2, k) := write_round b p in bw_write f b2 (skipn k p) (nn + k)
    end
  else if bw_err b then Some (b, nn, true)
  else Some ({| bw_cap := bw_cap b; bw_buf := bw_buf b ++ p; bw_err := false; bw_out := bw_out b; bw_script := bw_script b |},
             nn + length p, false).
Proof.
  destruct fuel; [reflexivity|]. cbn [bw_write]. unfold loops, write_round.
  destruct (bw_buf b); [destruct (under_write b p) as [[n e] b1]|destruct (bw_flush _)]; reflexivity.
Qed.

Lemma write_round_spec b p b2 k :
  write_round b p = (b2, k) ->
  (loops b p = true -> advances b p k b2) /\
  (contract (bw_script b) -> bw_err b2 = true \/ bw_buf b2 = [] /\ (bw_buf b = [] -> k = length p)).
Proof.
  unfold write_round, advances, stream, loops, avail. destruct (bw_buf b) as [|c buf].
  - destruct (under_write b p) as [[n e] b1] eqn:EU.
    apply under_write_spec in EU as (Hn & Ho & Hc & Hi & Hct & Hh).
    intros [= <- <-]. cbn [bw_out bw_buf bw_cap bw_err bw_script]. split.
    + intros _. rewrite Ho, !app_nil_r. repeat apply conj; auto using Nat.le_0_l. intros H _. apply Hh, H.
    + intros H. destruct e; auto.
  - destruct (bw_flush _) as [b3 e] eqn:EF. apply flush_spec in EF as (Hs & Hc & Hl & He & Hb & Hi & Hh).
    intros [= <- <-]. unfold stream in Hs. cbn [bw_out bw_buf bw_cap bw_err bw_script] in *. split.
    + intros EC. apply andb_true_iff in EC as [EC _]. apply Nat.ltb_lt in EC.
      rewrite app_length, firstn_length in Hl. rewrite Hs, Hc, <- app_assoc, He. cbn [length] in *.
      repeat apply conj; auto; lia.
    + intros _. destruct e; [auto|]. right. split; [auto|discriminate].
Qed.

Lemma write_spec fuel : forall b p nn b' nn' e,
  bw_write fuel b p nn = Some (b', nn', e) ->
  nn <= nn' /\ advances b p (nn' - nn) b' /\ bw_err b' = e /\ (e = false -> nn' - nn = length p).
Proof.
  induction fuel as [|f IH]; intros b p nn b' nn' e; rewrite bw_write_eq; destruct (loops b p) eqn:EC.
  - discriminate.
  - (* the exit: the writer has failed, or p fits into the buffer *)
    destruct (bw_err b) eqn:EE; intros [= <- <- <-].
    + rewrite Nat.sub_diag. split; [apply le_n|]. split; [apply advances_refl|]. split; [exact EE|discriminate].
    + unfold loops in EC. rewrite EE, andb_true_r in EC. apply Nat.ltb_ge in EC. unfold avail in EC.
      rewrite Nat.add_comm, Nat.add_sub. unfold advances, stream. cbn [bw_out bw_buf bw_cap bw_err bw_script].
      rewrite firstn_all, app_assoc, app_length. repeat apply conj; auto using incl_refl; lia.
  - (* one turn, then the rest of p *)
    destruct (write_round b p) as [b2 k] eqn:ER. apply write_round_spec in ER as (Hr & _). specialize (Hr EC).
    intros H. apply IH in H as (Hn & Ha & He & Hf). rewrite skipn_length in Hf.
    pose proof Hr as (Hk & _). replace (nn' - nn) with (k + (nn' - (nn + k))) by lia.
    split; [lia|]. split; [exact (advances_trans _ _ _ _ _ _ Hr Ha)|]. split; [exact He|]. intros E. specialize (Hf E). lia.
  - (* the exit takes no fuel: the same result with one unit less *)
    intros H. apply (IH b p nn). rewrite bw_write_eq, EC. exact H.
Qed.

Lemma write_stops fuel b p nn : loops b p = false -> bw_write fuel b p nn <> None.
Proof. intros H. rewrite bw_write_eq, H. destruct (bw_err b); discriminate. Qed.

Theorem write_terminates fuel b p nn :
  contract (bw_script b) -> bw_write (S (S fuel)) b p nn <> None.
Proof.
  (* after one turn the writer has failed or its buffer is empty; a second turn from an empty buffer takes all of p *)
  intros Hc. rewrite bw_write_eq. destruct (loops b p) eqn:EC; [|destruct (bw_err b); discriminate].
  destruct (write_round b p) as [b2 k] eqn:R1. apply write_round_spec in R1 as (Ha & H1).
  destruct (Ha EC) as (_ & _ & _ & _ & Hi & _). destruct (H1 Hc) as [He2|(Hb2 & _)].
  { apply write_stops. unfold loops. rewrite He2. apply andb_false_r. }
  rewrite bw_write_eq. destruct (loops b2 (skipn k p)); [|destruct (bw_err b2); discriminate].
  destruct (write_round b2 (skipn k p)) as [b3 k3] eqn:R2. apply write_round_spec in R2 as (_ & H2).
  apply write_stops. unfold loops. destruct (H2 (contract_incl _ _ Hi Hc)) as [He3|(_ & Hk)].
  - rewrite He3. apply andb_false_r.
  - rewrite (Hk Hb2), skipn_all. reflexivity.
Qed.

Theorem flush_empties b b' e : healthy (bw_script b) -> bw_err b = false -> bw_flush b = (b', e) -> bw_buf b' = [] /\ bw_out b' = stream b.
Proof.
  intros Hh He F. apply flush_spec in F as (Hs & _ & _ & _ & Hb & _ & He').
  specialize (Hb (He' Hh He)). unfold stream in Hs at 1. rewrite Hb, app_nil_r in Hs. auto.
Qed.

Lemma write_all fuel b p b' n e :
  healthy (bw_script b) -> bw_err b = false -> bw_write fuel b p 0 = Some (b', n, e) ->
  e = false /\ n = length p /\ stream b' = stream b ++ p /\ healthy (bw_script b') /\ bw_err b' = false.
Proof.
  intros Hh He W. apply write_spec in W as (_ & (_ & Hs & _ & _ & Hi & He') & <- & Hf). rewrite Nat.sub_0_r in *.
  specialize (He' Hh He). rewrite (Hf He'), firstn_all in Hs. pose proof (healthy_incl _ _ Hi Hh). auto.
Qed.

(* Conn.Write on a healthy connection appends exactly the line and one newline to the stream *)
Theorem conn_write_stream b line b' e :
  healthy (bw_script b) -> bw_err b = false -> conn_write b line = Some (b', e) ->
  e = false /\ stream b' = stream b ++ line ++ [10%N] /\ healthy (bw_script b') /\ bw_err b' = false.
Proof.
  intros Hh He. unfold conn_write.
  destruct (bw_write (WFUEL line) b line 0) as [[[b1 n] e1]|] eqn:W1; [|discriminate].
  destruct (write_all _ _ _ _ _ _ Hh He W1) as (-> & -> & Hs1 & Hh1 & He1).
  rewrite Nat.eqb_refl. cbn [negb andb].
  destruct (bw_write (WFUEL [10%N]) b1 [10%N] 0) as [[[b2 n2] e2]|] eqn:W2; [|discriminate].
  destruct (write_all _ _ _ _ _ _ Hh1 He1 W2) as (-> & -> & Hs2 & Hh2 & He2).
  intros [= <- <-]. rewrite Hs2, Hs1, <- app_assoc. auto.
Qed.

(* any interleaving of lines and flushes on a healthy connection: the stream is the lines in hand-off order, each
   once and each terminated by one newline; after a flush nothing is left in the buffer *)
Inductive cop := CLine (l : bytes) | CFlush.

Fixpoint conn_run (b : bw) (ops : list cop) : option bw :=
  match ops with
  | [] => Some b
  | CLine l :: r => match conn_write b l with Some (b', _) => conn_run b' r | None => None end
  | CFlush :: r => conn_run (fst (bw_flush b)) r
  end.

Fixpoint lines_of (ops : list cop) : bytes :=
  match ops with [] => [] | CLine l :: r => l ++ [10%N] ++ lines_of r | CFlush :: r => lines_of r end.

(* the buffer may even be longer than its capacity *)
Lemma conn_run_stream ops : forall b b',
  healthy (bw_script b) -> bw_err b = false -> conn_run b ops = Some b' -> stream b' = stream b ++ lines_of ops.
Proof.
  induction ops as [|[l|] r IH]; intros b b' Hh He H; cbn [conn_run lines_of] in *.
  - injection H as <-. symmetry. apply app_nil_r.
  - destruct (conn_write b l) as [[b1 e]|] eqn:W; [|discriminate].
    destruct (conn_write_stream _ _ _ _ Hh He W) as (_ & Hs & Hh1 & He1).
    rewrite (IH b1 b' Hh1 He1 H), Hs, <- !app_assoc. reflexivity.
  - destruct (bw_flush b) as [b1 e] eqn:F. cbn [fst] in H.
    apply flush_spec in F as (Hs & _ & _ & He1 & _ & Hi & He').
    rewrite (He' Hh He) in He1. rewrite (IH b1 b' (healthy_incl _ _ Hi Hh) He1 H), Hs. reflexivity.
Qed.

Theorem conn_stream ops : forall b b',
  healthy (bw_script b) -> bw_err b = false -> length (bw_buf b) <= bw_cap b ->
  conn_run b ops = Some b' -> stream b' = stream b ++ lines_of ops.
Proof. intros b b' Hh He _. apply conn_run_stream; assumption. Qed.

(* the bounded queue: what is taken is what was offered minus exactly the counted drops, in order *)
Fixpoint q_run (s : qst) (evs : list qev) : qst := match evs with [] => s | e :: r => q_run (q_step s e) r end.

Fixpoint offered (evs : list qev) : list bytes := match evs with [] => [] | Offer l :: r => l :: offered r | Take :: r => offered r end.

Inductive subseq : list bytes -> list bytes -> Prop :=
| ss_nil : subseq [] []
| ss_keep x l m : subseq l m -> subseq (x :: l) (x :: m)
| ss_drop x l m : subseq l m -> subseq l (x :: m).

Lemma subseq_app_r l m x : subseq l m -> subseq (l ++ [x]) (m ++ [x]).
Proof. induction 1; simpl; [repeat constructor|constructor; assumption|constructor; assumption]. Qed.
Lemma subseq_drop_r l m x : subseq l m -> subseq l (m ++ [x]).
Proof. induction 1; simpl; [repeat constructor|constructor; assumption|constructor; assumption]. Qed.

Theorem queue_accounting evs : forall s seen,
  subseq (q_taken s ++ q_items s) seen -> length seen = length (q_taken s ++ q_items s) + q_dropped s ->
  let s' := q_run s evs in
  subseq (q_taken s' ++ q_items s') (seen ++ offered evs) /\
  length (seen ++ offered evs) = length (q_taken s' ++ q_items s') + q_dropped s'.
Proof.
  induction evs as [|[l|] r IH]; intros s seen; cbn [q_run offered q_step].
  - rewrite app_nil_r. auto.
  - intros Hs Hl. change (l :: offered r) with ([l] ++ offered r). rewrite app_assoc.
    apply IH; destruct (Nat.ltb _ _); cbn [q_taken q_items q_dropped].
    + rewrite app_assoc. apply subseq_app_r, Hs.
    + apply subseq_drop_r, Hs.
    + rewrite !app_length in *. cbn [length]. lia.
    + rewrite !app_length in *. cbn [length]. lia.
  - destruct (q_items s) as [|x items] eqn:EI; intros Hs Hl; apply IH; cbn [q_taken q_items q_dropped];
      rewrite ?EI, <- ?app_assoc; assumption.
Qed.

(* pickle mode: the framing of the spool records *)
From CRNG Require Import Model.DiskQueue Proofs.DQBasics.

Theorem frames_roundtrip ps :
  (forall p, In p ps -> (N.of_nat (length p) < 4294967296)%N) ->
  parse_frames (length ps) (concat (map frame ps)) = Some ps.
Proof.
  induction ps as [|p ps IH]; intros Hb; [reflexivity|].
  cbn [map concat length].
  assert (Hp : (N.of_nat (length p) < 4294967296)%N) by (apply Hb; left; reflexivity).
  destruct (frame_roundtrip p (concat (map frame ps)) Hp) as [H1 [H2 H3]].
  remember (frame p ++ concat (map frame ps)) as s eqn:Es.
  assert (Hne : s <> []) by (subst s; unfold frame, be32; discriminate).
  destruct s as [|c s']; [contradiction|]. cbn [parse_frames].
  rewrite H1, Nat2N.id.
  assert (Hlen : Nat.ltb (length (c :: s')) (4 + length p) = false).
  { apply Nat.ltb_ge. rewrite Es, app_length, frame_length. lia. }
  rewrite Hlen, H2, H3, IH; [reflexivity|]. intros q Hq. apply Hb. right; exact Hq.
Qed.
