(* C14: whatever the constructors accept, the operations that later run with those values do not panic. *)
From CRNG Require Import Base.Bytes Model.Params.
Local Open Scope Z_scope.

(* wrap64 is a modulo, the per-worker buffer a quotient: lia gets them through this hook, which the section confines *)
Section WithDivMod.
Ltac Zify.zify_post_hook ::= Z.div_mod_to_equations.

Lemma dest_accepts_runs o : dest_accepts o = true -> dest_runs_ok o = true.
Proof.
  (* the durations are tested as they will be used, so dur stays folded on both sides; the sizes are bounded by
     maxint32, far below what make and NewWriter can allocate *)
  unfold dest_accepts, dest_runs_ok, new_ticker_ok, new_writer_ok, make_chan_ok, max_alloc, maxint32, atoi_ok.
  cbn [forallb]. destruct (o_spool o); cbn [negb orb andb]; lia.
Qed.

Theorem accepted_runs p : accepts p = true -> runs_ok p = true.
Proof.
  destruct p as [r i w|t ds|o]; cbn [accepts runs_ok].
  - (* 1 <= interval <= 9223372036 keeps interval * 10^9 within int64: it cannot wrap to 0 *)
    unfold aligned_tick_ok, atoi_ok, dur, wrap64, second. lia.
  - intros H. apply andb_true_iff in H as [Hd Ht]. apply andb_true_iff. split.
    + rewrite forallb_forall in *. intros o Ho. apply dest_accepts_runs. auto.
    + destruct t; try reflexivity. destruct ds; [cbn in Ht; discriminate | reflexivity].
  - unfold make_chan_ok, max_alloc, maxint32, atoi_ok. cbn [forallb]. intros H.
    assert (0 <= g_bufsize o / g_concurrency o <= g_bufsize o)
      by (split; [apply Z.div_pos; lia | apply Z.div_le_upper_bound; nia]).
    lia.
Qed.

End WithDivMod.

(* values that carbon-relay-ng accepted before its repairs (DESIGN §0.3), and what running with them does *)
Example zero_interval_panics : runs_ok (PAgg true 0 0) = false.
Proof. reflexivity. Qed.
Example wrapping_interval_panics : runs_ok (PAgg true 36028797018963968 0) = false.   (* 2^55 s = 0 ns mod 2^64 *)
Proof. vm_compute. reflexivity. Qed.
Example zero_flush_panics :
  dest_runs_ok {| o_flush := 0; o_reconn := 10000; o_connbuf := 30000; o_iobuf := 2000000; o_spool := false; o_spoolbuf := 10000;
                  o_maxbytes := 209715200; o_syncevery := 10000; o_syncperiod := 1000; o_spoolsleep := 500; o_unspoolsleep := 10 |} = false.
Proof. reflexivity. Qed.
Example gn_zero_concurrency_panics :
  runs_ok (PGn {| g_concurrency := 0; g_bufsize := 10000000; g_flushmaxnum := 5000; g_flushmaxwait := 500; g_timeout := 10000;
                  g_orgid := 1; g_backoffmin := 100 |}) = false.
Proof. reflexivity. Qed.
Example defaults_accepted :
  accepts (PRoute RAll [{| o_flush := 1000; o_reconn := 10000; o_connbuf := 30000; o_iobuf := 2000000; o_spool := true; o_spoolbuf := 10000;
                           o_maxbytes := 209715200; o_syncevery := 10000; o_syncperiod := 1000; o_spoolsleep := 500; o_unspoolsleep := 10 |}]) = true
  /\ accepts (PAgg true 10 20) = true.
Proof. vm_compute. auto. Qed.
