(* C11: drop-raw is exact: the first drop-raw aggregation that takes a name stops the line, and a name none of them
   takes is treated as if the option were off. *)
From CRNG Require Import Base.Bytes Model.Fields Model.Validate Model.Matcher Model.Rewriter Model.Table Proofs.TableProofs.
Local Open Scope nat_scope.

Section DropRaw.
  Variable search : rx -> bytes -> bool.
  Notation takes := (agg_takes search).

  Definition plain_takers (aggs : list agg) (i : nat) (name : bytes) : list nat :=
    accepting (fun a => negb (a_dropraw a) && takes a name) aggs i.

  (* aggregations of which no drop-raw one takes the name are passed through: the takers among them are fed, the loop goes on *)
  Lemma agg_loop_app pre rest name : forall i,
    (forall b, In b pre -> a_dropraw b = true -> takes b name = false) ->
    agg_loop search (pre ++ rest) i name =
    (accepting (fun b => takes b name) pre i ++ fst (agg_loop search rest (i + length pre) name),
     snd (agg_loop search rest (i + length pre) name)).
  Proof.
    induction pre as [|b pre IH]; intros i H; cbn [app length accepting].
    - rewrite Nat.add_0_r. destruct (agg_loop search rest i name); reflexivity.
    - rewrite agg_loop_cons, IH by (intros b' Hb'; apply H; right; exact Hb').
      replace (S i + length pre) with (i + S (length pre)) by lia.
      destruct (takes b name) eqn:T; [|reflexivity].
      destruct (a_dropraw b) eqn:D; [|reflexivity]. rewrite (H b (or_introl eq_refl) D) in T. discriminate T.
  Qed.

  Lemma agg_loop_no_drop aggs : forall i name,
    (forall a, In a aggs -> a_dropraw a = true -> takes a name = false) ->
    agg_loop search aggs i name = (accepting (fun a => takes a name) aggs i, false).
  Proof.
    intros i name H. rewrite <- (app_nil_r aggs) at 1. rewrite agg_loop_app by exact H. simpl. rewrite app_nil_r. reflexivity.
  Qed.

  (* the first drop-raw aggregation that takes the name stops the line: it and the plain takers before it are fed, nobody after *)
  Lemma agg_loop_drop pre a post : forall i name,
    (forall b, In b pre -> a_dropraw b = true -> takes b name = false) ->
    a_dropraw a = true -> takes a name = true ->
    agg_loop search (pre ++ a :: post) i name = (accepting (fun b => takes b name) pre i ++ [i + length pre], true).
  Proof. intros i name H Hd Ht. rewrite agg_loop_app by exact H. rewrite agg_loop_cons, Ht, Hd. reflexivity. Qed.

  Definition undrop (a : agg) : agg := {| a_matcher := a_matcher a; a_dropraw := false; a_outfmt := a_outfmt a |}.

  Lemma takes_undrop a name : takes (undrop a) name = takes a name.
  Proof. reflexivity. Qed.

  (* switching drop-raw off everywhere changes nothing for a name no drop-raw aggregation takes *)
  Theorem unaffected_by_dropraw aggs name :
    (forall a, In a aggs -> a_dropraw a = true -> takes a name = false) ->
    agg_loop search aggs 0 name = agg_loop search (map undrop aggs) 0 name.
  Proof.
    intros H. rewrite (agg_loop_no_drop aggs 0 name H).
    rewrite (agg_loop_no_drop (map undrop aggs) 0 name).
    - rewrite accepting_map. reflexivity.
    - intros a Ha D. apply in_map_iff in Ha as [a0 [<- _]]. discriminate D.
  Qed.

  (* a dropped line reaches no route and touches no counter *)
  Theorem dropped_goes_nowhere t om buf v s ts f0 f1 f2 :
    validate_packet buf (t_ll t) (t_lm t) v s = (strip_dot f0, None) ->
    fields buf = [f0; f1; f2] ->
    (t_order t = true -> snd (ordered om (strip_dot f0) ts) = true) ->
    existsb (fun m => mmatch search m f0) (t_blacklist t) = false ->
    snd (agg_loop search (t_aggs t) 0 (rewrite_all (t_rewriters t) f0)) = true ->
    let o := snd (dispatch search t om buf v s ts) in
    o_dropped_raw o = true /\ o_routes o = [] /\ o_dests o = [] /\ o_unroutable o = false /\ o_invalid o = false /\
    o_blacklisted o = false /\ o_agg_consumed o = fst (agg_loop search (t_aggs t) 0 (rewrite_all (t_rewriters t) f0)).
  Proof.
    intros Hv Hf Ho Hb Ha. destruct (fresh_order t om _ ts Ho) as [om' E].
    unfold dispatch. rewrite Hv, E. simpl. rewrite Hf, Hb.
    destruct (agg_loop search (t_aggs t) 0 (rewrite_all (t_rewriters t) f0)) as [c d]. simpl in Ha. subst d.
    repeat split; reflexivity.
  Qed.
End DropRaw.
