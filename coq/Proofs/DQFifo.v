(* Disk queue: the vocabulary of the FIFO statements.  The bytes a list of messages occupies in a segment file,
   the abstract queue the model is compared with, and the invariant of a queue that lives in its first segment
   file (no roll-over), in whose terms DQCrash.recover says what a recovered queue holds. *)
From CRNG Require Import Base.Bytes Model.DiskQueue Proofs.DQBasics Proofs.DQReader.
Local Open Scope N_scope.

Definition seg0 (d : dq) : bytes := match seg_get (f_segs (fs d)) 0 with Some x => x | None => [] end.

Definition frames (q : list bytes) : bytes := concat (map frame q).

(* the handle is consistent with the file at position p, or there is no handle *)
Definition handle_ok (C : bytes) (r : option rhandle) (p : nat) : Prop :=
  match r with
  | Some h => hinv C h p /\ h_num h = 0
  | None => True
  end.

Record qinv (c : cfg) (d : dq) (q : list bytes) : Prop := {
  qi_files : readFileNum d = 0 /\ writeFileNum d = 0 /\ nextReadFileNum d = 0;
  qi_wpos : (N.to_nat (writePos d) <= length (seg0 d))%nat;
  qi_exists : writePos d = 0 \/ seg_get (f_segs (fs d)) 0 = Some (seg0 d);
  qi_room : writePos d <= c_max c;
  qi_rpos : readPos d <= writePos d;
  qi_data : skipn (N.to_nat (readPos d)) (seg0 d) = frames q ++ skipn (N.to_nat (writePos d)) (seg0 d);
  qi_depth : depth d = Z.of_nat (length q);
  qi_small : forall m, In m q -> N.of_nat (length m) < 2147483648;
  qi_head : match q with
            | [] => ready d = false /\ nextReadPos d = readPos d /\ handle_ok (seg0 d) (rfile d) (N.to_nat (readPos d))
            | m :: _ => ready d = true /\ pending d = m /\ nextReadPos d = readPos d + 4 + N.of_nat (length m)
                        /\ handle_ok (seg0 d) (rfile d) (N.to_nat (nextReadPos d)) /\ rfile d <> None
            end }.

Lemma frames_cons m q : frames (m :: q) = frame m ++ frames q.
Proof. reflexivity. Qed.

Lemma frames_app a b : frames (a ++ b) = frames a ++ frames b.
Proof. unfold frames. rewrite map_app, concat_app. reflexivity. Qed.

Lemma frames_one m : frames [m] = frame m.
Proof. apply app_nil_r. Qed.

Lemma frames_length_pos m q : (4 <= length (frames (m :: q)))%nat.
Proof. rewrite frames_cons, app_length, frame_length. lia. Qed.

Lemma frames_nil_iff q : frames q = [] <-> q = [].
Proof.
  split; [|intros ->; reflexivity]. destruct q as [|m q]; [reflexivity|].
  intros H. pose proof (frames_length_pos m q) as L. rewrite H in L. cbn [length] in L. lia.
Qed.

Fixpoint fifo_run (q : list bytes) (ops : list dop) : list dout :=
  match ops with
  | [] => []
  | Put m :: r => OPut :: fifo_run (q ++ [m]) r
  | Get :: r => match q with
                | [] => OGet None :: fifo_run [] r
                | m :: q' => OGet (Some m) :: fifo_run q' r
                end
  | SyncTick :: r => OTick :: fifo_run q r
  | CloseReopen :: r => OReopen (Z.of_nat (length q)) :: fifo_run q r
  end.

(* every message below 2^31 bytes, everything written fits the first segment *)
Fixpoint fits (c : cfg) (wp : N) (ops : list dop) : bool :=
  match ops with
  | [] => true
  | Put m :: r => (N.of_nat (length m) <? 2147483648) && (wp + 4 + N.of_nat (length m) <=? c_max c)
                  && fits c (wp + 4 + N.of_nat (length m)) r
  | _ :: r => fits c wp r
  end.
