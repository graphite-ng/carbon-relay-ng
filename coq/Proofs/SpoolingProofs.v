(* C07: no handed-off line is lost uncounted, for every schedule of outages, recoveries and interleavings. *)
From CRNG Require Import Base.Bytes Model.Spooling.
Local Open Scope N_scope.

Definition located (s : sst) (id : N) : Prop :=
  In id (s_recv s) \/ In id (s_q s) \/ In id (s_keep s) \/ In id (s_spool s) \/ In id (s_slow s) \/ In id (s_slowspool s).

Definition safe (s : sst) : Prop := forall id, In id (s_handed s) -> located s id.

Lemma memb_In x l : memb x l = true <-> In x l.
Proof.
  unfold memb. rewrite existsb_exists. split.
  - intros [y [Hy E]]. apply N.eqb_eq in E. subst. exact Hy.
  - intros H. exists x. split; [exact H | apply N.eqb_refl].
Qed.

(* no step loses a line: what had a place still has one, and a line the step takes over gets one *)
Lemma sstep_located s e s' x :
  sstep s e = Some s' ->
  (located s x -> located s' x) /\ (In x (s_handed s') -> In x (s_handed s) \/ located s' x).
Proof.
  intros H. unfold located.
  destruct e as [id room|room| | | | | | |]; cbn [sstep] in H;
    [ (* SIn *) destruct (s_conn s), room
    | (* SUnspool *) destruct (s_conn s && negb (s_now s) && negb (s_last s)), (s_spool s) as [|h t], room; try discriminate
    | (* STake *) destruct (s_q s) as [|h t]; [discriminate|]
    | (* SDeliver *) destruct (s_alive s), (s_wire s) as [|h t]; try discriminate
    | (* SBreak *) destruct (s_alive s); [|discriminate]
    | (* SNotice *) destruct (s_conn s && negb (s_alive s)); [|discriminate]
    | (* SForget *)
    | (* SConnUp *) destruct (s_conn s); [discriminate|]
    | (* STick *) ].
  all: injection H as <-; cbn [s_recv s_q s_keep s_spool s_slow s_slowspool s_handed]; rewrite ?in_app_iff; cbn [In];
    try tauto.
  (* SForget: keepSafe drops only what has been received *)
  rewrite filter_In. destruct (memb x (s_recv s)) eqn:E; [apply memb_In in E|]; intuition.
Qed.

Theorem run_safe evs : forall s s', srun s evs = Some s' -> safe s -> safe s'.
Proof.
  induction evs as [|e evs IH]; cbn [srun]; intros s s' H Hs.
  - injection H as <-. exact Hs.
  - destruct (sstep s e) as [s1|] eqn:E; [|discriminate]. apply (IH _ _ H). intros x Hx.
    destruct (sstep_located _ _ _ x E) as [Hkeep Hnew]. destruct (Hnew Hx) as [Hh|Hl]; [exact (Hkeep (Hs x Hh))|exact Hl].
Qed.

Corollary reachable_safe evs s : srun sinit evs = Some s -> safe s.
Proof. intros H. apply (run_safe evs _ _ H). intros x []. Qed.

(* once everything has drained (queues empty, whatever keepSafe still holds has been received),
   the distinct lines never received are at most slow_conn + slow_spool *)
Definition drained (s : sst) : Prop :=
  s_q s = [] /\ s_spool s = [] /\ forall x, In x (s_keep s) -> In x (s_recv s).

Theorem missing_bounded s missing :
  safe s -> drained s -> NoDup missing ->
  (forall x, In x missing -> In x (s_handed s) /\ ~ In x (s_recv s)) ->
  (length missing <= length (s_slow s) + length (s_slowspool s))%nat.
Proof.
  intros Hsafe [Hq [Hs Hk]] Hnd Hm.
  rewrite <- app_length. apply NoDup_incl_length; [exact Hnd|].
  intros x Hx. destruct (Hm x Hx) as [Hh Hr]. specialize (Hsafe x Hh). specialize (Hk x).
  unfold located in Hsafe. rewrite Hq, Hs in Hsafe. cbn [In] in Hsafe. apply in_or_app. tauto.
Qed.

(* lines in flight when the break is noticed are put into the spool: nothing of conn.In or keepSafe is dropped *)
Theorem notice_replays s s' :
  sstep s SNotice = Some s' ->
  forall x, In x (s_q s) \/ In x (s_keep s) -> In x (s_spool s').
Proof.
  cbn [sstep]. destruct (s_conn s && negb (s_alive s)); [|discriminate].
  intros [= <-] x Hx. cbn [s_spool]. rewrite !in_app_iff. tauto.
Qed.

(* progress while the endpoint stays up and the conn is not slow: each of the three moves is enabled as long as
   its queue is non-empty and hands one line on.  A line weighs 2 in the spool and in conn.In and 1 on the wire, so that
   take (conn.In to wire) and deliver (off the wire) lower the backlog; unspool (spool to conn.In) leaves it and
   shortens the spool. *)
Definition backlog (s : sst) : nat := (2 * length (s_spool s) + 2 * length (s_q s) + length (s_wire s))%nat.

Lemma unspool_progress s :
  s_conn s = true -> s_now s = false -> s_last s = false -> s_spool s <> [] ->
  exists s', sstep s (SUnspool true) = Some s' /\ (backlog s' <= backlog s)%nat /\ length (s_spool s') = pred (length (s_spool s)).
Proof.
  intros Hc Hn Hl Hne. unfold backlog. cbn [sstep]. rewrite Hc, Hn, Hl. cbn [andb negb].
  destruct (s_spool s) as [|h t]; [contradiction|]. eexists. split; [reflexivity|].
  cbn [s_spool s_q s_wire length]. rewrite app_length. cbn [length]. split; [lia | reflexivity].
Qed.

Lemma take_progress s : s_q s <> [] -> exists s', sstep s STake = Some s' /\ (backlog s' < backlog s)%nat.
Proof.
  intros Hne. unfold backlog. cbn [sstep]. destruct (s_q s) as [|h t]; [contradiction|]. eexists. split; [reflexivity|].
  cbn [s_spool s_q s_wire length]. destruct (s_alive s); rewrite ?app_length; cbn [length]; lia.
Qed.

Lemma deliver_progress s :
  s_alive s = true -> s_wire s <> [] -> exists s', sstep s SDeliver = Some s' /\ (backlog s' < backlog s)%nat.
Proof.
  intros Ha Hne. unfold backlog. cbn [sstep]. rewrite Ha. destruct (s_wire s) as [|h t]; [contradiction|].
  eexists. split; [reflexivity|]. cbn [s_spool s_q s_wire length]. lia.
Qed.

Theorem drain_progress s :
  s_conn s = true -> s_alive s = true -> s_now s = false -> s_last s = false ->
  (s_spool s <> [] -> exists s', sstep s (SUnspool true) = Some s' /\ (backlog s' <= backlog s)%nat /\ length (s_spool s') = pred (length (s_spool s))) /\
  (s_q s <> [] -> exists s', sstep s STake = Some s' /\ (backlog s' < backlog s)%nat) /\
  (s_wire s <> [] -> exists s', sstep s SDeliver = Some s' /\ (backlog s' < backlog s)%nat).
Proof.
  intros Hc Ha Hn Hl. split; [exact (unspool_progress s Hc Hn Hl)|]. split; [exact (take_progress s) | exact (deliver_progress s Ha)].
Qed.

(* a schedule with an outage right after a hand-off (the line sits in the dead conn's queue), a replay,
   a second outage during unspooling, and a full drain: every line arrives *)
Example spooling_example :
  match srun sinit [SConnUp; SIn 1 true; STake; SDeliver; SIn 2 true; STake; SBreak; SIn 3 true; SNotice; SIn 4 true;
                    SConnUp; SUnspool true; STake; SBreak; SNotice; SConnUp;
                    SUnspool true; SUnspool true; SUnspool true; SUnspool true; STake; STake; STake; STake;
                    SDeliver; SDeliver; SDeliver; SDeliver; SForget] with
  | Some s => (s_q s, s_spool s, s_keep s, s_slow s, forallb (fun x => memb x (s_recv s)) [1;2;3;4])
  | None => ([], [], [], [], false)
  end = ([], [], [], [], true).
Proof. vm_compute. reflexivity. Qed.
