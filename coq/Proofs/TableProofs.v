(* Theorems about Model.Table.dispatch (C01, C11, the dispatch side of C02, the line shape of C04, the call sites of
   C03), for every table and every line, with the regex search an arbitrary function.  The drop-raw exit is in DropRawProofs.v. *)
From CRNG Require Import Base.Bytes Model.Fields Model.Validate Model.Matcher Model.Rewriter Model.Hashing Model.Table Proofs.MatcherProofs.
Local Open Scope nat_scope.

(* indices (counted from i) of the elements accepted by f, ascending *)
Fixpoint accepting {A} (f : A -> bool) (l : list A) (i : nat) : list nat :=
  match l with
  | [] => []
  | x :: l' => if f x then i :: accepting f l' (S i) else accepting f l' (S i)
  end.

Fixpoint accepting_el {A} (f : A -> bool) (l : list A) (i : nat) : list (nat * A) :=
  match l with
  | [] => []
  | x :: l' => if f x then (i, x) :: accepting_el f l' (S i) else accepting_el f l' (S i)
  end.

Lemma accepting_el_fst {A} (f : A -> bool) l i : map fst (accepting_el f l i) = accepting f l i.
Proof. revert i; induction l as [|x l IH]; intros i; simpl; [reflexivity|]. destruct (f x); simpl; rewrite IH; reflexivity. Qed.

Lemma accepting_spec {A} (f : A -> bool) l i j :
  In j (accepting f l i) <-> exists k x, j = i + k /\ nth_error l k = Some x /\ f x = true.
Proof.
  revert i; induction l as [|x l IH]; intros i; simpl.
  - split; [intros [] | intros ([|k] & y & _ & H & _); discriminate].
  - destruct (f x) eqn:E; simpl; rewrite IH; split.
    + intros [<-|(k & y & -> & H)]; [exists 0, x | exists (S k), y]; rewrite ?Nat.add_0_r, ?Nat.add_succ_r; auto.
    + intros ([|k] & y & -> & H); [left; lia | right; exists k, y; rewrite Nat.add_succ_r in *; auto].
    + intros (k & y & -> & H). exists (S k), y. rewrite Nat.add_succ_r. auto.
    + intros ([|k] & y & -> & H & Fy); [simpl in H; congruence | exists k, y; rewrite Nat.add_succ_r; auto].
Qed.

Lemma accepting_nodup {A} (f : A -> bool) l i : NoDup (accepting f l i).
Proof.
  revert i; induction l as [|x l IH]; intros i; simpl; [constructor|].
  destruct (f x); [|apply IH]. constructor; [|apply IH].
  intros (k & _ & E & _)%accepting_spec. lia.
Qed.

Lemma accepting_0 {A} (f : A -> bool) l j :
  In j (accepting f l 0) <-> exists x, nth_error l j = Some x /\ f x = true.
Proof. rewrite accepting_spec. split; [intros (k & x & -> & H); exists x; exact H | intros (x & H); exists j, x; auto]. Qed.

Lemma accepting_map {A B} (g : A -> B) (f : B -> bool) l i : accepting f (map g l) i = accepting (fun x => f (g x)) l i.
Proof. revert i; induction l as [|x l IH]; intros i; simpl; [reflexivity|]. rewrite IH. reflexivity. Qed.

(* the unroutable flag of a line handed to the routes with indices l *)
Lemma no_route_iff {A B} (g : A -> B) l : match map g l with [] => true | _ :: _ => false end = true <-> l = [].
Proof. destruct l; simpl; split; congruence. Qed.

Section WithSearch.
  Variable search : rx -> bytes -> bool.
  Notation mmatch := (mmatch search).

  Lemma send_all_spec ds i line :
    send_all search ds i line = accepting (fun d => mmatch (d_matcher d) (name_of line)) ds i.
  Proof. revert i; induction ds as [|d ds IH]; intros i; simpl; [reflexivity|]. rewrite IH. reflexivity. Qed.

  Lemma send_first_spec ds i line :
    send_first search ds i line = firstn 1 (accepting (fun d => mmatch (d_matcher d) (name_of line)) ds i).
  Proof.
    revert i; induction ds as [|d ds IH]; intros i; simpl; [reflexivity|].
    destruct (mmatch (d_matcher d) (name_of line)); [reflexivity|apply IH].
  Qed.

  Lemma send_hash_at_most_one ds line : length (send_hash ds line) <= 1.
  Proof.
    unfold send_hash. destruct (index_byte 32 line) as [[|n]|]; simpl; try lia.
    destruct (dest_index _ _ _ _); simpl; lia.
  Qed.

  Definition route_accepts (name : bytes) (r : route) : bool := mmatch (r_matcher r) name.

  (* for every matching route, in order: the hand-off to it, and to the destinations its Dispatch selects *)
  Lemma route_loop_spec rs i name line :
    route_loop search rs i name line =
    (map (fun j => (j, line)) (accepting (route_accepts name) rs i),
     flat_map (fun jr => map (fun d => (fst jr, d, line)) (route_dispatch search (snd jr) line))
              (accepting_el (route_accepts name) rs i)).
  Proof.
    revert i; induction rs as [|r rs IH]; intros i; simpl; [reflexivity|].
    rewrite IH. fold (route_accepts name r). destruct (route_accepts name r); reflexivity.
  Qed.

  Definition passes_validation (t : table) (buf : bytes) (val_ok ts_ok : bool) : Prop :=
    snd (validate_packet buf (t_ll t) (t_lm t) val_ok ts_ok) = None.

  Lemma dispatch_invalid t om buf v s ts e :
    snd (validate_packet buf (t_ll t) (t_lm t) v s) = Some e ->
    let '(om', o) := dispatch search t om buf v s ts in
    om' = om /\ o_invalid o = true /\ o_routes o = [] /\ o_dests o = [] /\ o_agg_consumed o = [] /\
    o_out_of_order o = false /\ o_blacklisted o = false /\ o_unroutable o = false /\
    o_bad o = Some (fst (validate_packet buf (t_ll t) (t_lm t) v s), BadInvalid e).
  Proof.
    unfold dispatch. destruct (validate_packet buf (t_ll t) (t_lm t) v s) as [key [e'|]]; simpl; [|discriminate].
    intros H; inversion H; subst. repeat split; reflexivity.
  Qed.

  Lemma validate_three_fields buf ll lm v s key :
    validate_packet buf ll lm v s = (key, None) -> exists f0 f1 f2, fields buf = [f0; f1; f2] /\ key = strip_dot f0.
  Proof.
    unfold validate_packet. destruct (fields buf) as [|f0 [|f1 [|f2 [|? ?]]]]; try discriminate.
    intros H. exists f0, f1, f2. split; [reflexivity|].
    destruct (match get_version f0 with Legacy => _ | M20 => _ | M20NoEquals => _ end); [discriminate|].
    destruct (negb v); [discriminate|]. destruct (negb s); [discriminate|]. inversion H; reflexivity.
  Qed.

  (* only the validation exit of the pipeline raises the invalid flag *)
  Lemma dispatch_valid t om buf v s ts :
    snd (validate_packet buf (t_ll t) (t_lm t) v s) = None -> o_invalid (snd (dispatch search t om buf v s ts)) = false.
  Proof.
    unfold dispatch. destruct (validate_packet buf (t_ll t) (t_lm t) v s) as [key [e|]] eqn:E; [discriminate|]. intros _.
    destruct (validate_three_fields _ _ _ _ _ _ E) as (f0 & f1 & f2 & -> & _).
    destruct (if t_order t then ordered om key ts else (om, true)) as [om' [|]]; [|reflexivity]. cbn [negb].
    destruct (existsb _ _); [reflexivity|]. destruct (agg_loop _ _ _ _) as [c [|]]; [reflexivity|].
    destruct (route_loop _ _ _ _ _); reflexivity.
  Qed.

  (* a line that is in order, or not checked for order, passes validate.Ordered *)
  Lemma fresh_order t om key ts :
    (t_order t = true -> snd (ordered om key ts) = true) ->
    exists om', (if t_order t then ordered om key ts else (om, true)) = (om', true).
  Proof.
    intros H. destruct (t_order t); [|exists om; reflexivity]. specialize (H eq_refl).
    destruct (ordered om key ts) as [om' b]. simpl in H. subst b. exists om'. reflexivity.
  Qed.

  Theorem dispatch_routes_exact t om buf v s ts f0 f1 f2 :
    validate_packet buf (t_ll t) (t_lm t) v s = (strip_dot f0, None) ->
    fields buf = [f0; f1; f2] ->
    (t_order t = true -> snd (ordered om (strip_dot f0) ts) = true) ->
    existsb (fun m => mmatch m f0) (t_blacklist t) = false ->
    snd (agg_loop search (t_aggs t) 0 (rewrite_all (t_rewriters t) f0)) = false ->
    let name := rewrite_all (t_rewriters t) f0 in
    let final := name ++ [32%N] ++ f1 ++ [32%N] ++ f2 in
    let o := snd (dispatch search t om buf v s ts) in
    o_routes o = map (fun j => (j, final)) (accepting (route_accepts name) (t_routes t) 0) /\
    o_dests o = flat_map (fun jr => map (fun d => (fst jr, d, final)) (route_dispatch search (snd jr) final))
                         (accepting_el (route_accepts name) (t_routes t) 0) /\
    (o_unroutable o = true <-> accepting (route_accepts name) (t_routes t) 0 = []) /\
    o_invalid o = false /\ o_out_of_order o = false /\ o_blacklisted o = false /\ o_bad o = None.
  Proof.
    intros Hv Hf Ho Hb Ha name final. destruct (fresh_order t om _ ts Ho) as [om' E].
    unfold dispatch. rewrite Hv, E. simpl. rewrite Hf, Hb. fold name in Ha |- *.
    destruct (agg_loop search (t_aggs t) 0 name) as [consumed dropped]. simpl in Ha. subst dropped.
    rewrite route_loop_spec. simpl. repeat split; apply no_route_iff.
  Qed.

  (* C04: every recipient gets the same text, the rewritten name and the second and third token as they came.
     Nothing is asked of the line but its three tokens: on every other way out of dispatch there is no recipient. *)
  Theorem dispatch_line_shape t om buf v s ts f0 f1 f2 :
    fields buf = [f0; f1; f2] ->
    let final := rewrite_all (t_rewriters t) f0 ++ [32%N] ++ f1 ++ [32%N] ++ f2 in
    let o := snd (dispatch search t om buf v s ts) in
    (forall j l, In (j, l) (o_routes o) -> l = final) /\
    (forall j d l, In (j, d, l) (o_dests o) -> l = final).
  Proof.
    intros Hf final o. subst o. unfold dispatch.
    destruct (validate_packet buf (t_ll t) (t_lm t) v s) as [key [e|]]; [split; intros; contradiction|].
    destruct (if t_order t then ordered om key ts else (om, true)) as [om' [|]]; [|split; intros; contradiction].
    cbn [negb]. rewrite Hf.
    destruct (existsb _ _); [split; intros; contradiction|].
    destruct (agg_loop _ _ _ _) as [c [|]]; [split; intros; contradiction|].
    rewrite route_loop_spec. cbn [snd o_routes o_dests]. fold final. split.
    - intros j l (j' & [= _ <-] & _)%in_map_iff. reflexivity.
    - intros j d l (jr & _ & (d' & [= _ _ <-] & _)%in_map_iff)%in_flat_map. reflexivity.
  Qed.

  Theorem dispatch_blacklisted t om buf v s ts f0 f1 f2 :
    validate_packet buf (t_ll t) (t_lm t) v s = (strip_dot f0, None) ->
    fields buf = [f0; f1; f2] ->
    (t_order t = true -> snd (ordered om (strip_dot f0) ts) = true) ->
    existsb (fun m => mmatch m f0) (t_blacklist t) = true ->
    let o := snd (dispatch search t om buf v s ts) in
    o_blacklisted o = true /\ o_routes o = [] /\ o_dests o = [] /\ o_agg_consumed o = [] /\
    o_unroutable o = false /\ o_invalid o = false /\ o_bad o = None.
  Proof.
    intros Hv Hf Ho Hb. destruct (fresh_order t om _ ts Ho) as [om' E].
    unfold dispatch. rewrite Hv, E. simpl. rewrite Hf, Hb. repeat split; reflexivity.
  Qed.

  (* a rejected point is reported and forwarded nowhere *)
  Theorem dispatch_out_of_order t om buf v s ts key :
    validate_packet buf (t_ll t) (t_lm t) v s = (key, None) ->
    t_order t = true -> snd (ordered om key ts) = false ->
    let o := snd (dispatch search t om buf v s ts) in
    o_out_of_order o = true /\ o_bad o = Some (key, BadOutOfOrder) /\ o_routes o = [] /\ o_dests o = [] /\
    o_agg_consumed o = [] /\ o_invalid o = false /\ o_unroutable o = false /\ fst (dispatch search t om buf v s ts) = om.
  Proof.
    intros Hv Ho Hr. unfold dispatch. rewrite Hv, Ho.
    unfold ordered in *. destruct (_ <? ts)%N; simpl in *; [discriminate|].
    repeat split; reflexivity.
  Qed.

  (* DispatchAggregate looks at the routes only *)
  Theorem dispatch_aggregate_routes rs buf :
    let o := dispatch_aggregate search rs buf in
    o_routes o = map (fun j => (j, buf)) (accepting (route_accepts (name_of buf)) rs 0) /\
    o_agg_consumed o = [] /\ o_invalid o = false /\ o_blacklisted o = false /\ o_bad o = None /\
    (o_unroutable o = true <-> accepting (route_accepts (name_of buf)) rs 0 = []).
  Proof.
    unfold dispatch_aggregate. rewrite route_loop_spec. simpl. repeat split; apply no_route_iff.
  Qed.

  (* an aggregation consumes a point exactly when its complete filter accepts the name *)
  Definition agg_takes (a : agg) (name : bytes) : bool :=
    mpre (a_matcher a) name &&
    (match m_regex (a_matcher a) with Some r => search r name | None => false end
     && negb (match m_notRegex (a_matcher a) with Some r => search r name | None => false end)).

  Lemma agg_takes_spec a name r :
    m_regex (a_matcher a) = Some r ->
    prefix_sound search r ->
    agg_takes a name = spec_accept search (a_matcher a) name.
  Proof.
    intros Hr Hs. unfold agg_takes, mpre, spec_accept. rewrite pre_match_conj, Hr, !negb_andb, !negb_involutive.
    (* where the regex matches, its static prefix is present: the PreMatch clause for it says nothing more *)
    destruct (search r name) eqn:S1; [rewrite (Hs name S1), orb_true_r, !andb_true_r; reflexivity|].
    rewrite !andb_false_r. reflexivity.
  Qed.

  Lemma agg_loop_cons a aggs i name :
    agg_loop search (a :: aggs) i name =
    if agg_takes a name
    then if a_dropraw a then ([i], true)
         else (i :: fst (agg_loop search aggs (S i) name), snd (agg_loop search aggs (S i) name))
    else agg_loop search aggs (S i) name.
  Proof.
    simpl. unfold agg_takes. destruct (mpre (a_matcher a) name); [|reflexivity]. simpl.
    destruct (a_dropraw a), (_ && _); destruct (agg_loop search aggs (S i) name); reflexivity.
  Qed.

  Lemma agg_loop_takers aggs name j : forall i,
    In j (fst (agg_loop search aggs i name)) -> In j (accepting (fun a => agg_takes a name) aggs i).
  Proof.
    induction aggs as [|a aggs IH]; intros i; [intros []|].
    rewrite agg_loop_cons. simpl accepting. destruct (agg_takes a name); [|apply IH].
    destruct (a_dropraw a); simpl; intros [<-|H]; [left; reflexivity | destruct H | left; reflexivity | right; apply IH; exact H].
  Qed.

  Lemma agg_loop_consumed aggs i name j :
    In j (fst (agg_loop search aggs i name)) ->
    exists a, nth_error aggs (j - i) = Some a /\ i <= j /\ agg_takes a name = true.
  Proof.
    intros (k & a & -> & Hn & Ht)%agg_loop_takers%accepting_spec. exists a.
    replace (i + k - i) with k by lia. auto with arith.
  Qed.
End WithSearch.

(* C03 at the call sites: decisions depend on the metric name only *)
Section Sites.
  Variable search : rx -> bytes -> bool.

  Lemma send_all_name_only ds i l l' : name_of l = name_of l' -> send_all search ds i l = send_all search ds i l'.
  Proof. intros H. rewrite !send_all_spec, H. reflexivity. Qed.

  Lemma send_first_name_only ds i l l' : name_of l = name_of l' -> send_first search ds i l = send_first search ds i l'.
  Proof. intros H. rewrite !send_first_spec, H. reflexivity. Qed.

  Lemma aggregate_routes_name_only rs l l' :
    name_of l = name_of l' ->
    map fst (o_routes (dispatch_aggregate search rs l)) = map fst (o_routes (dispatch_aggregate search rs l')).
  Proof.
    intros H. destruct (dispatch_aggregate_routes search rs l) as [-> _].
    destruct (dispatch_aggregate_routes search rs l') as [-> _].
    rewrite !map_map, H. reflexivity.
  Qed.
End Sites.
