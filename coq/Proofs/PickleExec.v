(* The og-rek machine (Model/PickleVM.v) run over code of a known shape: what each opcode with well-formed arguments does
   to the stack, and how such steps compose, without counting fuel.  Shared by the round trip of og-rek's own encoder
   (C16, ReencodeProofs.v) and of CPython's pickler (C13, PickleIn*.v). *)
From CRNG Require Import Base.Bytes Base.Decimal Model.PickleVM Model.Reencode Proofs.DecimalProofs.
From Coq Require Import ZifyN ZifyBool.

Local Open Scope N_scope.

Lemma le_num_le_bytes k : forall n, le_num (le_bytes k n) = n mod 256 ^ N.of_nat k.
Proof.
  induction k as [|k IH]; intros n.
  - cbn. symmetry. apply N.mod_1_r.
  - cbn [le_bytes]. change (le_num (n mod 256 :: le_bytes k (n / 256))) with (n mod 256 + 256 * le_num (le_bytes k (n / 256))).
    rewrite IH, Nat2N.inj_succ, N.pow_succ_r'.
    rewrite N.mod_mul_r by lia. reflexivity.
Qed.

Lemma length_le_bytes k : forall n, length (le_bytes k n) = k.
Proof. induction k as [|k IH]; intros n; cbn [le_bytes length]; [reflexivity | rewrite IH; reflexivity]. Qed.

Lemma length_be_bytes k n : length (be_bytes k n) = k.
Proof. unfold be_bytes. rewrite rev_length. apply length_le_bytes. Qed.

Lemma be_num_be_bytes k n : be_num (be_bytes k n) = n mod 256 ^ N.of_nat k.
Proof. unfold be_num, be_bytes. rewrite rev_involutive. apply le_num_le_bytes. Qed.

Lemma le_num_le_bytes_small k n : n < 256 ^ N.of_nat k -> le_num (le_bytes k n) = n.
Proof. intros H. rewrite le_num_le_bytes. apply N.mod_small, H. Qed.

Lemma be_num_be_bytes_small k n : n < 256 ^ N.of_nat k -> be_num (be_bytes k n) = n.
Proof. intros H. rewrite be_num_be_bytes. apply N.mod_small, H. Qed.

Lemma le_num_byte n : le_num [n] = n.
Proof. cbn. lia. Qed.

Lemma take_app a : forall r, take (length a) (a ++ r) = Some (a, r).
Proof. induction a as [|x a IH]; intros r; cbn [length take app]; [reflexivity | rewrite IH; reflexivity]. Qed.

Lemma take_le_bytes k n r : take k (le_bytes k n ++ r) = Some (le_bytes k n, r).
Proof. rewrite <- (length_le_bytes k n) at 1. apply take_app. Qed.

Lemma take_be_bytes k n r : take k (be_bytes k n ++ r) = Some (be_bytes k n, r).
Proof. rewrite <- (length_be_bytes k n) at 1. apply take_app. Qed.

Lemma take_nl_app a : forall r acc, take_nl (a ++ r) (N.of_nat (length a)) acc = Some (rev acc ++ a, r).
Proof.
  induction a as [|c a IH]; intros r acc.
  - cbn [length app]. destruct r; cbn; rewrite rev_append_rev, !app_nil_r; reflexivity.
  - cbn [length app take_nl].
    replace (N.of_nat (S (length a)) =? 0) with false by lia.
    replace (N.pred (N.of_nat (S (length a)))) with (N.of_nat (length a)) by lia.
    rewrite IH. cbn [rev]. rewrite <- app_assoc. reflexivity.
Qed.

Lemma take_n_app a r : take_n (N.of_nat (length a)) (a ++ r) = Some (a, r).
Proof. unfold take_n. rewrite take_nl_app. reflexivity. Qed.

Lemma strip_cr_id l : ~ In 13 l -> strip_cr l = l.
Proof.
  intros H. unfold strip_cr. destruct (rev l) as [|x r] eqn:E; [reflexivity|].
  destruct (N.eq_dec x 13) as [->|Hx].
  - exfalso. apply H. apply in_rev. rewrite E. left. reflexivity.
  - destruct x as [|p]; [reflexivity|]. repeat (destruct p as [p|p|]; try reflexivity). congruence.
Qed.

Lemma read_line_app l rest : ~ In 10 l -> ~ In 13 l -> read_line (l ++ 10 :: rest) = Some (l, rest).
Proof.
  intros H10 H13. unfold read_line. destruct (l ++ 10 :: rest) eqn:E; [destruct l; discriminate|].
  rewrite <- E. rewrite cut_app by exact H10. rewrite strip_cr_id by exact H13. reflexivity.
Qed.

Lemma parse_int_print n : parse_int (N_to_dec n) = Some (Z.of_N n).
Proof.
  pose proof (dec_parse_print n) as H. destruct (N_to_dec_head n) as [d [ds [E Hd]]]. unfold parse_int. rewrite E in *.
  replace (match d with 45 => _ | _ => _ end) with (match dec_parse (d :: ds) with Some n0 => Some (Z.of_N n0) | None => None end).
  - rewrite H. reflexivity.
  - destruct (N.eq_dec d 45) as [->|H45]; [discriminate Hd|]. destruct (N.eq_dec d 43) as [->|H43]; [discriminate Hd|].
    destruct d as [|p]; [reflexivity|]. repeat (destruct p as [p|p|]; try reflexivity); congruence.
Qed.

(* "00" and "01" are the text forms of the booleans: no printed number is one of them *)
Lemma dec_not_bool n : beqb (N_to_dec n) [48; 48] = false /\ beqb (N_to_dec n) [48; 49] = false.
Proof.
  pose proof (dec_parse_print n) as H.
  split; apply beqb_neq; intros E; rewrite E in H; cbn in H; inversion H; subst n; discriminate E.
Qed.

Section Exec.
  Variable pf : bytes -> option N.
  Variable py : bool.
  Notation R := (run pf py).

  Lemma run_step f m c r b :
    R (S f) m (c :: r) b =
    match step pf py m c r with
    | SNext m' r' => R f m' r' false
    | SStop => match stk m with [] => RErr | v :: _ => RDone v end
    | SFail e => e
    end.
  Proof. reflexivity. Qed.

  Lemma run_more f : forall m s b, R f m s b <> RFuel ->
    forall f', (f <= f')%nat -> R f' m s b = R f m s b.
  Proof.
    induction f as [|f IH]; intros m s b H f' Hf; [cbn in H; congruence|].
    destruct f' as [|f']; [lia|].
    destruct s as [|c r]; [reflexivity|].
    rewrite !run_step in *. destruct (step pf py m c r) as [m' r'| |e]; try reflexivity.
    apply IH; [exact H | lia].
  Qed.

  (* Started with stack [st] and any memo on input [s], the machine stops with [v].  One unit of fuel per byte
     is enough, since every opcode takes at least its own byte. *)
  Definition yields (s : bytes) (st : list pv) (v : pv) : Prop :=
    forall mem b, R (length s) {| stk := st; memo := mem |} s b = RDone v.

  (* [code] takes the stack [st] to [st'], whatever follows it.  The memo may change on the way: nothing in the
     pickles considered here reads it. *)
  Definition exec (code : bytes) (st st' : list pv) : Prop :=
    forall rest v, yields rest st' v -> yields (code ++ rest) st v.

  Lemma yields_unpickle s v : yields s [] v -> unpickle pf py s = RDone v.
  Proof.
    intros Y. unfold unpickle, vm0. rewrite (run_more (length s)); [apply Y | rewrite Y; discriminate | lia].
  Qed.

  Lemma exec_nil st : exec [] st st.
  Proof. intros rest v Y. exact Y. Qed.

  Lemma exec_app c1 c2 st0 st1 st2 : exec c1 st0 st1 -> exec c2 st1 st2 -> exec (c1 ++ c2) st0 st2.
  Proof. intros H1 H2 rest v Y. rewrite <- app_assoc. apply H1, H2, Y. Qed.

  Lemma yields_step c args rest st st' v :
    (forall mem, exists mem', step pf py {| stk := st; memo := mem |} c (args ++ rest)
                              = SNext {| stk := st'; memo := mem' |} rest) ->
    yields rest st' v -> yields (c :: args ++ rest) st v.
  Proof.
    intros Hs Y mem b. destruct (Hs mem) as [mem' E]. cbn [length]. rewrite run_step, E.
    rewrite (run_more (length rest)); [apply Y | rewrite Y; discriminate | rewrite app_length; lia].
  Qed.

  Lemma yields_stop rest v st : yields (46 :: rest) (v :: st) v.
  Proof. intros mem b. reflexivity. Qed.

  Lemma yields_mark rest st v : yields rest (VMark :: st) v -> yields (40 :: rest) st v.
  Proof. apply (yields_step 40 []). intros mem. exists mem. reflexivity. Qed.

  Lemma yields_empty_list rest st v : yields rest (VList [] :: st) v -> yields (93 :: rest) st v.
  Proof. apply (yields_step 93 []). intros mem. exists mem. reflexivity. Qed.

  Lemma yields_tuple2 rest a b st v : yields rest (VTuple [a; b] :: st) v -> yields (134 :: rest) (b :: a :: st) v.
  Proof. apply (yields_step 134 []). intros mem. exists mem. reflexivity. Qed.

  Lemma yields_append rest x xs st v : yields rest (VList (xs ++ [x]) :: st) v -> yields (97 :: rest) (x :: VList xs :: st) v.
  Proof. apply (yields_step 97 []). intros mem. exists mem. reflexivity. Qed.

  Lemma yields_memoize rest x st v : yields rest (x :: st) v -> yields (148 :: rest) (x :: st) v.
  Proof. apply (yields_step 148 []). intros mem. eexists. reflexivity. Qed.

  Lemma split_mark_rev l st : ~ In VMark l -> forall acc, split_mark (rev l ++ VMark :: st) acc = Some (l ++ acc, st).
  Proof.
    induction l as [|x l IH] using rev_ind; intros Hn acc; [reflexivity|].
    rewrite rev_unit, <- app_assoc. cbn [app].
    rewrite <- IH by (intros Hi; apply Hn, in_or_app; left; exact Hi).
    destruct x; try reflexivity. exfalso. apply Hn, in_or_app. right. left. reflexivity.
  Qed.

  Lemma yields_tuple l rest st0 st v :
    split_mark st0 [] = Some (l, st) -> yields rest (VTuple l :: st) v -> yields (116 :: rest) st0 v.
  Proof.
    intros E. apply (yields_step 116 []). intros mem. exists mem.
    unfold step. cbn [N.eqb Pos.eqb orb stk]. rewrite E. reflexivity.
  Qed.

  (* MARK a b TUPLE: how protocols 0 and 1, which have no TUPLE2, write a pair *)
  Lemma yields_mark_tuple2 rest a b st v : a <> VMark -> b <> VMark ->
    yields rest (VTuple [a; b] :: st) v -> yields (116 :: rest) (b :: a :: VMark :: st) v.
  Proof.
    intros Ha Hb. apply (yields_tuple [a; b]), (split_mark_rev [a; b]). intros [E|[E|[]]]; [exact (Ha E) | exact (Hb E)].
  Qed.

  Lemma yields_appends l xs rest st0 st v :
    split_mark st0 [] = Some (l, VList xs :: st) -> yields rest (VList (xs ++ l) :: st) v -> yields (101 :: rest) st0 v.
  Proof.
    intros E. apply (yields_step 101 []). intros mem. exists mem.
    unfold step. cbn [N.eqb Pos.eqb orb stk]. rewrite E. reflexivity.
  Qed.

  Lemma yields_proto p rest st v : yields rest st v -> yields (128 :: p :: rest) st v.
  Proof. apply (yields_step 128 [p]). intros mem. exists mem. reflexivity. Qed.

  Lemma yields_frame n rest st v : yields rest st v -> yields (149 :: le_bytes 8 n ++ rest) st v.
  Proof.
    apply yields_step. intros mem. exists mem.
    unfold step. cbn [N.eqb Pos.eqb orb]. unfold with_take. rewrite take_le_bytes. reflexivity.
  Qed.

  Lemma yields_binput i rest x st v : yields rest (x :: st) v -> yields (113 :: i :: rest) (x :: st) v.
  Proof. apply (yields_step 113 [i]). intros mem. eexists. reflexivity. Qed.

  Lemma yields_long_binput i rest x st v : yields rest (x :: st) v -> yields (114 :: le_bytes 4 i ++ rest) (x :: st) v.
  Proof.
    apply yields_step. intros mem. eexists.
    unfold step. cbn [N.eqb Pos.eqb orb stk]. unfold with_take. rewrite take_le_bytes. reflexivity.
  Qed.

  Lemma yields_short_binstring s rest st v :
    yields rest (VStr s :: st) v -> yields (85 :: N.of_nat (length s) :: s ++ rest) st v.
  Proof.
    apply (yields_step 85 (_ :: s)). intros mem. exists mem.
    unfold step. cbn [N.eqb Pos.eqb orb app with_take take]. unfold with_take_n. rewrite le_num_byte, take_n_app. reflexivity.
  Qed.

  Lemma yields_short_binunicode s rest st v :
    yields rest (VStr s :: st) v -> yields (140 :: N.of_nat (length s) :: s ++ rest) st v.
  Proof.
    apply (yields_step 140 (_ :: s)). intros mem. exists mem.
    unfold step. cbn [N.eqb Pos.eqb orb app with_take take]. unfold with_take_n. rewrite le_num_byte, take_n_app. reflexivity.
  Qed.

  Lemma yields_binstring s rest st v : N.of_nat (length s) < 4294967296 ->
    yields rest (VStr s :: st) v -> yields (84 :: le_bytes 4 (N.of_nat (length s)) ++ s ++ rest) st v.
  Proof.
    intros Hl. rewrite app_assoc. apply yields_step. intros mem. exists mem. rewrite <- app_assoc.
    unfold step. cbn [N.eqb Pos.eqb orb]. unfold with_take. rewrite take_le_bytes, le_num_le_bytes_small by lia.
    unfold with_take_n. rewrite take_n_app. reflexivity.
  Qed.

  Lemma yields_binunicode s rest st v : N.of_nat (length s) < 2147483648 ->
    yields rest (VStr s :: st) v -> yields (88 :: le_bytes 4 (N.of_nat (length s)) ++ s ++ rest) st v.
  Proof.
    intros Hl. rewrite app_assoc. apply yields_step. intros mem. exists mem. rewrite <- app_assoc.
    unfold step. cbn [N.eqb Pos.eqb orb]. unfold with_take. rewrite take_le_bytes, le_num_le_bytes_small by lia.
    replace (2147483648 <=? _) with false by lia. unfold with_take_n. rewrite take_n_app. reflexivity.
  Qed.

  Lemma yields_binint1 n rest st v : yields rest (VInt (Z.of_N n) :: st) v -> yields (75 :: n :: rest) st v.
  Proof.
    apply (yields_step 75 [n]). intros mem. exists mem.
    unfold step. cbn [N.eqb Pos.eqb orb app with_take take]. rewrite le_num_byte. reflexivity.
  Qed.

  Lemma yields_binint2 n rest st v : n < 65536 ->
    yields rest (VInt (Z.of_N n) :: st) v -> yields (77 :: le_bytes 2 n ++ rest) st v.
  Proof.
    intros Hn. apply yields_step. intros mem. exists mem.
    unfold step. cbn [N.eqb Pos.eqb orb]. unfold with_take. rewrite take_le_bytes, le_num_le_bytes_small by lia. reflexivity.
  Qed.

  (* og-rek reads BININT as unsigned, CPython as signed: below 2^31 they agree *)
  Lemma yields_binint n rest st v : n < 2147483648 ->
    yields rest (VInt (Z.of_N n) :: st) v -> yields (74 :: le_bytes 4 n ++ rest) st v.
  Proof.
    intros Hn. apply yields_step. intros mem. exists mem.
    unfold step. cbn [N.eqb Pos.eqb orb]. unfold with_take. rewrite take_le_bytes.
    rewrite le_num_le_bytes_small by lia. replace (2147483648 <=? n) with false by lia. rewrite andb_false_r. reflexivity.
  Qed.

  Lemma yields_binfloat bits rest st v : bits < 18446744073709551616 ->
    yields rest (VFloat bits :: st) v -> yields (71 :: be_bytes 8 bits ++ rest) st v.
  Proof.
    intros Hb. apply yields_step. intros mem. exists mem.
    unfold step. cbn [N.eqb Pos.eqb orb]. unfold with_take. rewrite take_be_bytes, be_num_be_bytes_small by lia. reflexivity.
  Qed.

  (* a length byte above 127 would make og-rek read nothing (C13:known:huge_long) *)
  Lemma yields_long1 k bs rest st v : N.of_nat (length bs) = k -> k < 128 ->
    yields rest (VLong (twos bs) :: st) v -> yields (138 :: k :: bs ++ rest) st v.
  Proof.
    intros <- Hl. apply (yields_step 138 (_ :: bs)). intros mem. exists mem.
    unfold step. cbn [N.eqb Pos.eqb orb app with_take take]. rewrite le_num_byte.
    replace (127 <? _) with false by lia. unfold with_take_n. rewrite take_n_app. reflexivity.
  Qed.

  Lemma yields_int n rest st v : n < 9223372036854775808 ->
    yields rest (VInt (Z.of_N n) :: st) v -> yields (73 :: N_to_dec n ++ 10 :: rest) st v.
  Proof.
    intros Hn. change (10 :: rest) with ([10] ++ rest). rewrite app_assoc. apply yields_step. intros mem. exists mem.
    rewrite <- app_assoc. unfold step. cbn [N.eqb Pos.eqb orb app]. unfold with_line.
    rewrite read_line_app by (apply N_to_dec_not_in; reflexivity).
    destruct (dec_not_bool n) as [-> ->]. rewrite parse_int_print.
    replace (in_int64 (Z.of_N n)) with true by (unfold in_int64; lia). reflexivity.
  Qed.

  Section Items.
    Variable A : Type.
    Variable item : A -> N -> bytes.            (* one item, given the next free memo index; it memoizes three objects *)
    Variable items : list A -> N -> bytes.
    Variable okb : A -> bool.
    Variable val : A -> pv.
    Hypothesis items_eq : forall ds i, items ds i = match ds with [] => [] | d :: r => item d i ++ items r (i + 3) end.
    Hypothesis exec_item : forall d i st, okb d = true -> exec (item d i) st (val d :: st).
    Hypothesis val_not_mark : forall d, val d <> VMark.

    Lemma exec_items ds : forall i st, forallb okb ds = true -> exec (items ds i) st (rev (map val ds) ++ st).
    Proof.
      induction ds as [|d ds IH]; intros i st Hok; rewrite items_eq.
      - apply exec_nil.
      - cbn [forallb] in Hok. apply andb_true_iff in Hok as [Hd Hok]. cbn [map rev]. rewrite <- app_assoc.
        exact (exec_app _ _ _ _ _ (exec_item d i st Hd) (IH (i + 3) (val d :: st) Hok)).
    Qed.

    (* what CPython writes after EMPTY_LIST: nothing, or one item and APPEND, or MARK, the items, APPENDS *)
    Lemma exec_list_body ds st : forallb okb ds = true ->
      exec (match ds with [] => [] | [d] => item d 1 ++ [97] | _ => [40] ++ items ds 1 ++ [101] end)
           (VList [] :: st) (VList (map val ds) :: st).
    Proof.
      intros Hok. destruct ds as [|d [|d' ds]].
      - apply exec_nil.
      - cbn [forallb] in Hok. apply andb_true_iff in Hok as [Hd _].
        intros rest v Y. rewrite <- app_assoc. apply (exec_item d 1 _ Hd). apply yields_append, Y.
      - set (dl := d :: d' :: ds) in *. intros rest v Y. rewrite <- !app_assoc. apply yields_mark.
        apply (exec_items dl 1 _ Hok). apply (yields_appends (map val dl) [] _ _ st); [|exact Y].
        rewrite split_mark_rev, app_nil_r; [reflexivity|].
        intros Hin. apply in_map_iff in Hin as [x [E _]]. exact (val_not_mark x E).
    Qed.
  End Items.
End Exec.
