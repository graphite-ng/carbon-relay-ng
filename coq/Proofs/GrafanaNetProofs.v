(* C17: retry until acknowledged, nothing skipped, order kept, shutdown drains. *)
From CRNG Require Import Base.Bytes Model.GrafanaNet.
Local Open Scope nat_scope.

Lemma retry_spec faults used rest :
  retry faults = Some (used, rest) ->
  faults = used ++ rest /\ exists fails, used = fails ++ [Ok2xx] /\ forallb (fun o => negb (is_ok o)) fails = true.
Proof.
  revert used rest; induction faults as [|o r IH]; intros used rest H; simpl in H; [discriminate|].
  destruct (is_ok o) eqn:E.
  - inversion H; subst. split; [reflexivity|]. exists []. destruct o; try discriminate. auto.
  - destruct (retry r) as [[u rs]|] eqn:ER; [|discriminate]. inversion H; subst.
    destruct (IH u rest eq_refl) as [-> [fails [-> Hf]]]. split; [reflexivity|].
    exists (o :: fails). split; [reflexivity|]. simpl. rewrite E, Hf. reflexivity.
Qed.

Lemma retry_total faults : In Ok2xx faults -> retry faults <> None.
Proof.
  induction faults as [|o r IH]; intros H; [destruct H|]. simpl. destruct (is_ok o) eqn:E; [discriminate|].
  destruct H as [->|H]; [discriminate|]. specialize (IH H). destruct (retry r) as [[u rs]|]; [discriminate|contradiction].
Qed.

Section W.
  Variable A : Type.
  Variable flush_max : nat.
  Notation wstate := (wstate A).
  Notation acked := (acked A).

  Lemma acked_of_attempts (b : list A) fails :
    forallb (fun o => negb (is_ok o)) fails = true ->
    flat_map (fun p : list A * outcome => if is_ok (snd p) then fst p else []) (map (fun o => (b, o)) (fails ++ [Ok2xx])) = b.
  Proof.
    induction fails as [|o fails IH]; simpl; intros H; [apply app_nil_r|].
    apply andb_true_iff in H as [H1 H2]. apply negb_true_iff in H1. rewrite H1. simpl. apply IH; exact H2.
  Qed.

  (* the conservation-and-order invariant of one shard: acknowledged ++ in the batch ++ still queued = received, in order *)
  Definition total (w : wstate) : list A := acked w ++ w_batch A w ++ w_queue A w.

  Lemma do_flush_spec w w' :
    do_flush A w = Some w' ->
    total w' = total w /\ w_batch A w' = [] /\ w_queue A w' = w_queue A w /\ w_done A w' = w_done A w /\
    (* every attempt of this flush carried the same body, only the last one was acknowledged *)
    exists attempts, w_posts A w' = w_posts A w ++ map (fun o => (w_batch A w, o)) attempts /\
                     (w_batch A w = [] -> attempts = []) /\
                     (w_batch A w <> [] -> exists fails, attempts = fails ++ [Ok2xx] /\ forallb (fun o => negb (is_ok o)) fails = true).
  Proof.
    unfold do_flush. destruct (w_batch A w) as [|m b] eqn:EB.
    - intros H; inversion H; subst. rewrite EB. repeat split; auto. exists []. rewrite app_nil_r. repeat split; auto. intros Hc; contradiction.
    - destruct (retry (w_faults A w)) as [[used rest]|] eqn:ER; [|discriminate].
      intros H; inversion H; subst; simpl. apply retry_spec in ER as [_ [fails [-> Hf]]].
      unfold total, GrafanaNet.acked. simpl. rewrite flat_map_app, acked_of_attempts by exact Hf.
      split; [rewrite EB, <- !app_assoc; reflexivity|repeat split; auto].
      exists (fails ++ [Ok2xx]). repeat split; [discriminate|]. intros _. exists fails. auto.
  Qed.

  Lemma take_spec w w' :
    take A flush_max w = Some w' -> total w' = total w /\ length (w_queue A w') = length (w_queue A w) - 1.
  Proof.
    unfold take. destruct (w_queue A w) as [|m q] eqn:EQ; [intros [= <-]; rewrite EQ; auto|].
    set (w1 := {| w_queue := q; w_batch := w_batch A w ++ [m]; w_posts := w_posts A w; w_faults := w_faults A w; w_done := w_done A w |}).
    assert (T1 : total w1 = total w).
    { unfold total, w1, GrafanaNet.acked. simpl. rewrite EQ, <- !app_assoc. reflexivity. }
    destruct (Nat.eqb (length (w_batch A w1)) flush_max); intros H.
    - apply do_flush_spec in H as (Ht & _ & Hq & _). rewrite Ht, T1, Hq. simpl. split; [reflexivity|lia].
    - injection H as <-. rewrite T1. simpl. split; [reflexivity|lia].
  Qed.

  Lemma drain_spec fuel : forall w w', length (w_queue A w) <= fuel -> drain A flush_max fuel w = Some w' ->
    total w' = total w /\ w_queue A w' = [].
  Proof.
    induction fuel as [|f IH]; intros w w' Hl H; simpl in H.
    - injection H as <-. destruct (w_queue A w); [auto|simpl in Hl; lia].
    - destruct (w_queue A w) as [|m q] eqn:EQ; [injection H as <-; auto|].
      destruct (take A flush_max w) as [w1|] eqn:ET; [|discriminate].
      destruct (take_spec _ _ ET) as [T1 L1]. rewrite EQ in L1. cbn [length] in *.
      destruct (IH w1 w' ltac:(lia) H) as [T2 Q2]. rewrite T2, T1. auto.
  Qed.

  (* shutdown: the worker takes in everything still queued, flushes, and reports done: nothing is left behind *)
  Theorem shutdown_drains w w' :
    w_done A w = false -> wstep A flush_max w WShutdown = Some w' ->
    w_done A w' = true /\ w_queue A w' = [] /\ w_batch A w' = [] /\ acked w' = total w.
  Proof.
    intros Hd. unfold wstep. rewrite Hd.
    destruct (drain A flush_max (length (w_queue A w)) w) as [w1|] eqn:ED; [|discriminate].
    destruct (do_flush A w1) as [w2|] eqn:EF; [|discriminate].
    intros [= <-]. cbn [w_done w_queue w_batch].
    destruct (drain_spec _ _ _ (le_n _) ED) as (T1 & Q1). destruct (do_flush_spec _ _ EF) as (T2 & B2 & Q2 & _).
    rewrite Q2. repeat split; auto. rewrite <- T1, <- T2. unfold total. rewrite B2, Q2, Q1, !app_nil_r. reflexivity.
  Qed.

  Theorem step_total w e w' : wstep A flush_max w e = Some w' -> total w' = total w.
  Proof.
    intros H. pose proof H as H0. unfold wstep in H. destruct (w_done A w) eqn:Hd; [injection H as <-; reflexivity|].
    destruct e; [apply take_spec in H; tauto | apply do_flush_spec in H; tauto |].
    destruct (shutdown_drains _ _ Hd H0) as (_ & Q & B & Ak). unfold total at 1. rewrite Q, B, !app_nil_r. exact Ak.
  Qed.

  (* what was acknowledged is always a prefix, in receive order, of what the shard received *)
  Corollary acked_prefix w : exists rest, total w = acked w ++ rest.
  Proof. unfold total. eauto. Qed.

  (* a full queue: non-blocking mode drops and reports it, blocking mode is simply not enabled (nothing is dropped) *)
  Theorem buffer_full blocking cap q m :
    cap <= length q ->
    enqueue A blocking cap q m = if blocking then None else Some (q, true).
  Proof. intros H. unfold enqueue. apply Nat.ltb_ge in H. rewrite H. reflexivity. Qed.

  Theorem buffer_room blocking cap q m : length q < cap -> enqueue A blocking cap q m = Some (q ++ [m], false).
  Proof. intros H. unfold enqueue. apply Nat.ltb_lt in H. rewrite H. reflexivity. Qed.
End W.
