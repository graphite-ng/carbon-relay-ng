(* C13: protocol 4 pickles (FRAME, SHORT_BINUNICODE, MEMOIZE) decode to the datapoints as well, and a connection
   may mix frames of all protocols. *)
From CRNG Require Import Base.Bytes Model.PickleVM Model.Reencode Model.PickleIn Model.PyPickle Proofs.PickleExec Proofs.PickleInProofs Proofs.PickleIn1 Proofs.PickleIn0.
Local Open Scope N_scope.

Section Steps4.
  Variable pf : bytes -> option N.
  Notation yields := (yields pf false).
  Notation exec := (exec pf false).

  Lemma exec_enc_str4 s st : N.of_nat (length s) < 2147483648 -> exec (enc_str4 s) st (VStr s :: st).
  Proof.
    intros Hl rest v Y. unfold enc_str4. rewrite <- app_assoc. apply yields_memoize in Y.
    destruct (N.of_nat (length s) <? 256); cbn [app].
    - apply yields_short_binunicode, Y.
    - rewrite <- app_assoc. apply yields_binunicode; [exact Hl | exact Y].
  Qed.

  (* an item as protocol 4 writes it, whatever the code [ct], [cv] of its two numbers *)
  Lemma exec_item4 s ct cv vt vv st :
    N.of_nat (length s) < 2147483648 -> (forall st', exec ct st' (vt :: st')) -> (forall st', exec cv st' (vv :: st')) ->
    exec (enc_str4 s ++ ct ++ cv ++ [134; 148; 134; 148]) st (VTuple [VStr s; VTuple [vt; vv]] :: st).
  Proof.
    intros Hl Ht Hv rest v Y. rewrite <- !app_assoc. apply exec_enc_str4; [exact Hl|]. apply Ht, Hv.
    apply yields_tuple2, yields_memoize, yields_tuple2, yields_memoize, Y.
  Qed.

  Lemma exec_enc_item4 d st : dp_ok d = true -> exec (enc_item4 d) st (item_val d :: st).
  Proof.
    intros Hd. apply dp_ok_inv in Hd as [Hn [Ht Hv]].
    apply exec_item4; [exact Hn | intros st'; apply exec_enc_num, Ht | intros st'; apply exec_enc_num, Hv].
  Qed.

  (* PROTO 4, and a FRAME around any body of at least 4 bytes *)
  Lemma yields_proto4 body st v :
    yields body st v ->
    yields ([128; 4] ++ (if N.of_nat (length body) <? 4 then body else 149 :: le_bytes 8 (N.of_nat (length body)) ++ body)) st v.
  Proof. intros Y. cbn [app]. apply yields_proto. destruct (_ <? 4); [exact Y | apply yields_frame, Y]. Qed.

  Theorem unpickle_py_dumps4 ds :
    forallb dp_ok ds = true -> unpickle pf false (py_dumps4 ds) = RDone (VList (map item_val ds)).
  Proof.
    intros Hok. apply yields_unpickle, yields_proto4. unfold body4. cbn [app]. apply yields_empty_list, yields_memoize.
    apply (exec_list_body pf false pydp (fun d _ => enc_item4 d) (fun ds _ => enc_items4 ds) dp_ok item_val);
      [intros [|d r] i; reflexivity | intros d i st; apply exec_enc_item4 | discriminate | exact Hok |].
    apply yields_stop.
  Qed.
End Steps4.

Section Conn4.
  Variable pf : bytes -> option N.
  Variable fmt6 fmt0 : N -> bytes.

  Definition frame_ok4 (pd : N * list pydp) : Prop :=
    forallb dp_ok (snd pd) = true /\ 3 * N.of_nat (length (snd pd)) + 1 < 4294967296 /\
    N.of_nat (length (payload pd)) <= max_payload.

  (* by protocol, frame_ok4 is the condition of that protocol *)
  Lemma frame_ok4_carries pd : frame_ok4 pd -> carries pf fmt6 fmt0 (payload pd) (snd pd).
  Proof.
    unfold frame_ok4, payload. destruct (fst pd =? 4); [|destruct (fst pd =? 1)].
    - intros [Hok [_ Hmax]].
      apply (carries_intro _ _ _ item_val); [apply handle_item_val | apply unpickle_py_dumps4, Hok | | exact Hmax].
      intros rest. unfold py_dumps4. destruct (_ <? 4); reflexivity.
    - apply frame_ok1_carries.
    - apply frame_ok_carries.
  Qed.
End Conn4.

Section ConnAll.
  Variable pf : bytes -> option N.
  Variable frepr : N -> bytes.
  Hypothesis pf_repr : forall b, pf (frepr b) = Some b.
  Hypothesis repr_line : forall b, ~ In 10 (frepr b) /\ ~ In 13 (frepr b).
  Variable fmt6 fmt0 : N -> bytes.

  Definition frame_okr (pd : N * list pydp) : Prop :=
    if fst pd =? 0 then frame_ok0 frepr (snd pd) else frame_ok4 pd.

  Lemma frame_okr_carries pd : frame_okr pd -> carries pf fmt6 fmt0 (payload_r frepr pd) (snd pd).
  Proof.
    unfold frame_okr, payload_r. destruct (fst pd =? 0).
    - apply frame_ok0_carries; assumption.
    - apply frame_ok4_carries.
  Qed.
End ConnAll.
