(* Disk queue: what each operation does to each field of the state.  The model writes its operations as full
   updates of the 15-field record; unfolding them inside a proof multiplies the term with every nesting level.
   Here each operation is a composition of named one-step updates (by conversion), and each (operation, field)
   pair the proofs need has one small equation; "autorewrite with dq" pushes projections through presync,
   write_one and move_forward. *)
From CRNG Require Import Base.Bytes Model.DiskQueue Proofs.DQBasics.
Local Open Scope N_scope.

(* what persistMetaData leaves in the temp file: the new text, then whatever an older, longer temp file held beyond it *)
Definition meta_text (d : dq) : bytes :=
  write_at (match f_tmp (fs d) with Some t => t | None => [] end) 0
           (print_meta (depth d) (readFileNum d) (readPos d) (writeFileNum d) (writePos d)).
Definition fs_tmp (f : fsys) (t : bytes) : fsys := {| f_segs := f_segs f; f_bad := f_bad f; f_meta := f_meta f; f_tmp := Some t |}.
Definition fs_meta (f : fsys) (t : bytes) : fsys := {| f_segs := f_segs f; f_bad := f_bad f; f_meta := Some t; f_tmp := None |}.

Lemma meta_text_stale d :
  exists stale, meta_text d = print_meta (depth d) (readFileNum d) (readPos d) (writeFileNum d) (writePos d) ++ stale.
Proof. unfold meta_text. rewrite write_at_zero. eexists. reflexivity. Qed.

Lemma do_sync_fs d : fs (do_sync d) = fs_meta (fs d) (meta_text d).
Proof. unfold do_sync. destruct (wopen d); reflexivity. Qed.

Lemma do_sync_trace d :
  trace (do_sync d) = (L_meta_rename, fs_meta (fs d) (meta_text d)) :: (L_tmp_write, fs_tmp (fs d) (meta_text d)) ::
                      (if wopen d then [(L_seg_fsync, fs d)] else []) ++ trace d.
Proof. unfold do_sync. destruct (wopen d); reflexivity. Qed.

(* the top of the loop: the operation counter and a sync when one is due (presync), then the read-ahead *)
Definition sync_due (c : cfg) (d : dq) : bool := needSync d || (count d + 1 =? c_syncevery c)%Z.

Definition ticked (c : cfg) (d : dq) : dq :=
  {| readPos := readPos d; writePos := writePos d; readFileNum := readFileNum d; writeFileNum := writeFileNum d; depth := depth d;
     nextReadPos := nextReadPos d; nextReadFileNum := nextReadFileNum d; needSync := sync_due c d;
     count := if (count d + 1 =? c_syncevery c)%Z then 0%Z else (count d + 1)%Z;
     rfile := rfile d; wopen := wopen d; pending := pending d; ready := ready d; fs := fs d; trace := trace d |}.

Definition presync (c : cfg) (d : dq) : dq := if sync_due c d then do_sync (ticked c d) else ticked c d.

Definition setr (x : dq) (p : bytes) (r : bool) : dq :=
  {| readPos := readPos x; writePos := writePos x; readFileNum := readFileNum x; writeFileNum := writeFileNum x; depth := depth x;
     nextReadPos := nextReadPos x; nextReadFileNum := nextReadFileNum x; needSync := needSync x; count := count x;
     rfile := rfile x; wopen := wopen x; pending := p; ready := r; fs := fs x; trace := trace x |}.

(* One pass of the loop.  The model runs it with LOOP_FUEL = S 63; the proofs need one pass, or two when a missing
   file is skipped, and pass the 63 on. *)
Lemma loop_top_unfold c f d :
  loop_top c (S f) d =
  let d2 := presync c d in
  if (readFileNum d2 <? writeFileNum d2) || (readPos d2 <? writePos d2) then
    if nextReadPos d2 =? readPos d2 then
      match read_one c d2 with
      | RdOk d3 msg => Some (setr d3 msg true)
      | RdErr d3 => loop_top c f (handle_read_error d3)
      | RdPanic => None
      end
    else Some (setr d2 (pending d2) true)
  else Some (setr d2 (pending d2) false).
Proof. reflexivity. Qed.

Section Presync.
  Variables (c : cfg) (d : dq).
  (* the same one line proves each equation: both branches of the sync, in it both branches of the fsync *)
  Local Ltac t := unfold presync, do_sync; destruct (sync_due c d); [destruct (wopen (ticked c d))|]; reflexivity.
  Lemma presync_readPos : readPos (presync c d) = readPos d. Proof. t. Qed.
  Lemma presync_writePos : writePos (presync c d) = writePos d. Proof. t. Qed.
  Lemma presync_readFileNum : readFileNum (presync c d) = readFileNum d. Proof. t. Qed.
  Lemma presync_writeFileNum : writeFileNum (presync c d) = writeFileNum d. Proof. t. Qed.
  Lemma presync_depth : depth (presync c d) = depth d. Proof. t. Qed.
  Lemma presync_nextReadPos : nextReadPos (presync c d) = nextReadPos d. Proof. t. Qed.
  Lemma presync_nextReadFileNum : nextReadFileNum (presync c d) = nextReadFileNum d. Proof. t. Qed.
  Lemma presync_rfile : rfile (presync c d) = rfile d. Proof. t. Qed.
  Lemma presync_pending : pending (presync c d) = pending d. Proof. t. Qed.
  Lemma presync_segs : f_segs (fs (presync c d)) = f_segs (fs d). Proof. t. Qed.
End Presync.
#[export] Hint Rewrite presync_readPos presync_writePos presync_readFileNum presync_writeFileNum presync_depth presync_nextReadPos
  presync_nextReadFileNum presync_rfile presync_pending presync_segs : dq.

(* writeOne: the record is appended; beyond the limit the file number advances, with a sync, and the file is closed *)
Definition fs_written (d : dq) (m : bytes) : fsys :=
  with_segs (fs d) (seg_set (f_segs (fs d)) (writeFileNum d)
                            (write_at (match seg_get (f_segs (fs d)) (writeFileNum d) with Some x => x | None => [] end)
                                      (N.to_nat (writePos d)) (frame m))).

Definition appended (d : dq) (m : bytes) : dq :=
  {| readPos := readPos d; writePos := writePos d + 4 + N.of_nat (length m); readFileNum := readFileNum d; writeFileNum := writeFileNum d;
     depth := depth d + 1; nextReadPos := nextReadPos d; nextReadFileNum := nextReadFileNum d; needSync := needSync d; count := count d;
     rfile := rfile d; wopen := true; pending := pending d; ready := ready d; fs := fs_written d m;
     trace := (L_seg_write, fs_written d m) :: trace d |}.

Definition rolled (d : dq) : dq :=
  {| readPos := readPos d; writePos := 0; readFileNum := readFileNum d; writeFileNum := writeFileNum d + 1; depth := depth d;
     nextReadPos := nextReadPos d; nextReadFileNum := nextReadFileNum d; needSync := needSync d; count := count d;
     rfile := rfile d; wopen := true; pending := pending d; ready := ready d; fs := fs d; trace := trace d |}.

Definition wclosed (d : dq) : dq :=
  {| readPos := readPos d; writePos := writePos d; readFileNum := readFileNum d; writeFileNum := writeFileNum d; depth := depth d;
     nextReadPos := nextReadPos d; nextReadFileNum := nextReadFileNum d; needSync := needSync d; count := count d;
     rfile := rfile d; wopen := false; pending := pending d; ready := ready d; fs := fs d; trace := trace d |}.

Lemma wclosed_fs d : fs (wclosed d) = fs d.
Proof. reflexivity. Qed.
Lemma wclosed_trace d : trace (wclosed d) = trace d.
Proof. reflexivity. Qed.

Definition rolls (c : cfg) (d : dq) (m : bytes) : bool := c_max c <? writePos d + 4 + N.of_nat (length m).

Lemma write_one_eq c d m :
  write_one c d m = if rolls c d m then wclosed (do_sync (rolled (appended d m))) else appended d m.
Proof. reflexivity. Qed.

Section WriteOne.
  Variables (c : cfg) (d : dq) (m : bytes).
  Local Ltac t := rewrite write_one_eq; destruct (rolls c d m); reflexivity.
  Lemma write_one_readPos : readPos (write_one c d m) = readPos d. Proof. t. Qed.
  Lemma write_one_readFileNum : readFileNum (write_one c d m) = readFileNum d. Proof. t. Qed.
  Lemma write_one_nextReadPos : nextReadPos (write_one c d m) = nextReadPos d. Proof. t. Qed.
  Lemma write_one_nextReadFileNum : nextReadFileNum (write_one c d m) = nextReadFileNum d. Proof. t. Qed.
  Lemma write_one_rfile : rfile (write_one c d m) = rfile d. Proof. t. Qed.
  Lemma write_one_pending : pending (write_one c d m) = pending d. Proof. t. Qed.
  Lemma write_one_ready : ready (write_one c d m) = ready d. Proof. t. Qed.
  Lemma write_one_depth : depth (write_one c d m) = (depth d + 1)%Z. Proof. t. Qed.
  Lemma write_one_writeFileNum : writeFileNum (write_one c d m) = if rolls c d m then writeFileNum d + 1 else writeFileNum d. Proof. t. Qed.
  Lemma write_one_writePos : writePos (write_one c d m) = if rolls c d m then 0 else writePos d + 4 + N.of_nat (length m). Proof. t. Qed.
  Lemma write_one_segs : f_segs (fs (write_one c d m)) = f_segs (fs_written d m). Proof. t. Qed.
End WriteOne.
#[export] Hint Rewrite write_one_readPos write_one_readFileNum write_one_nextReadPos write_one_nextReadFileNum write_one_rfile
  write_one_pending write_one_ready write_one_depth write_one_writeFileNum write_one_writePos write_one_segs : dq.

(* moveForward: the read position advances; checkTailCorruption finds nothing to repair while the new position
   does not lie beyond the write position, but resets a depth that disagrees at the tail *)
Definition advance (d : dq) : dq :=
  let changed := negb (readFileNum d =? nextReadFileNum d) in
  let f1 := if changed then with_segs (fs d) (seg_del (f_segs (fs d)) (readFileNum d)) else fs d in
  let removed := changed && match seg_get (f_segs (fs d)) (readFileNum d) with Some _ => true | None => false end in
  {| readPos := nextReadPos d; writePos := writePos d; readFileNum := nextReadFileNum d; writeFileNum := writeFileNum d; depth := depth d - 1;
     nextReadPos := nextReadPos d; nextReadFileNum := nextReadFileNum d; needSync := needSync d || changed; count := count d;
     rfile := rfile d; wopen := wopen d; pending := pending d; ready := ready d; fs := f1;
     trace := if removed then (L_seg_remove, f1) :: trace d else trace d |}.

Definition depth_reset (d : dq) : dq :=
  {| readPos := readPos d; writePos := writePos d; readFileNum := readFileNum d; writeFileNum := writeFileNum d; depth := 0;
     nextReadPos := nextReadPos d; nextReadFileNum := nextReadFileNum d; needSync := true; count := count d;
     rfile := rfile d; wopen := wopen d; pending := pending d; ready := ready d; fs := fs d; trace := trace d |}.

Lemma move_forward_eq d : move_forward d = check_tail (advance d) (depth d - 1).
Proof. reflexivity. Qed.

Definition readable (d : dq) : bool := (readFileNum d <? writeFileNum d) || (readPos d <? writePos d).
Definition at_tail (d : dq) : Prop := readFileNum d = writeFileNum d /\ readPos d = writePos d.

Lemma check_tail_in_bounds d dep :
  readable d = true \/ at_tail d ->
  check_tail d dep = if readable d || (dep =? 0)%Z then d else depth_reset d.
Proof.
  intros H. unfold check_tail. fold (readable d). destruct (readable d); [reflexivity|].
  destruct H as [H|[H1 H2]]; [discriminate|]. apply N.eqb_eq in H1, H2.
  destruct (dep =? 0)%Z; cbn [orb readPos writePos readFileNum writeFileNum]; rewrite H1, H2; reflexivity.
Qed.

(* the next read position does not lie beyond the write position *)
Definition in_bounds (d : dq) : Prop := readable (advance d) = true \/ at_tail (advance d).

Section MoveForward.
  Variable d : dq.
  Hypothesis H : in_bounds d.
  Local Ltac t := rewrite move_forward_eq, check_tail_in_bounds by exact H; destruct (readable (advance d) || (depth d - 1 =? 0)%Z);
                  unfold advance; destruct (readFileNum d =? nextReadFileNum d); reflexivity.
  Lemma move_forward_readPos : readPos (move_forward d) = nextReadPos d. Proof. t. Qed.
  Lemma move_forward_writePos : writePos (move_forward d) = writePos d. Proof. t. Qed.
  Lemma move_forward_readFileNum : readFileNum (move_forward d) = nextReadFileNum d. Proof. t. Qed.
  Lemma move_forward_writeFileNum : writeFileNum (move_forward d) = writeFileNum d. Proof. t. Qed.
  Lemma move_forward_nextReadPos : nextReadPos (move_forward d) = nextReadPos d. Proof. t. Qed.
  Lemma move_forward_nextReadFileNum : nextReadFileNum (move_forward d) = nextReadFileNum d. Proof. t. Qed.
  Lemma move_forward_rfile : rfile (move_forward d) = rfile d. Proof. t. Qed.
  Lemma move_forward_segs :
    f_segs (fs (move_forward d)) = if readFileNum d =? nextReadFileNum d then f_segs (fs d) else seg_del (f_segs (fs d)) (readFileNum d).
  Proof. t. Qed.
  (* at the tail the depth must be right for the depth and the sync flag to be left alone *)
  Hypothesis Hd : at_tail (advance d) -> (depth d - 1 = 0)%Z.
  Lemma move_forward_exact : move_forward d = advance d.
  Proof.
    rewrite move_forward_eq, check_tail_in_bounds by exact H.
    destruct (readable (advance d)) eqn:E; [reflexivity|]. destruct H as [H1|H1]; [congruence|]. rewrite (Hd H1). reflexivity.
  Qed.
  Lemma move_forward_depth : depth (move_forward d) = (depth d - 1)%Z.
  Proof. rewrite move_forward_exact. reflexivity. Qed.
End MoveForward.
#[export] Hint Rewrite move_forward_readPos move_forward_writePos move_forward_readFileNum move_forward_writeFileNum move_forward_nextReadPos
  move_forward_nextReadFileNum move_forward_rfile using assumption : dq.

Lemma dq_close_trace d :
  trace (dq_close d) = (L_meta_rename, fs_meta (fs d) (meta_text d)) :: (L_tmp_write, fs_tmp (fs d) (meta_text d)) :: trace d.
Proof. reflexivity. Qed.
Lemma dq_close_depth d : depth (dq_close d) = depth d.
Proof. reflexivity. Qed.

(* the state NewDiskQueue enters the loop with *)
Definition opened (f : fsys) (tr : list (N * fsys)) (dep : Z) (rf rp wf wp : N) : dq :=
  {| readPos := rp; writePos := wp; readFileNum := rf; writeFileNum := wf; depth := dep;
     nextReadPos := rp; nextReadFileNum := rf; needSync := false; count := 0%Z;
     rfile := None; wopen := false; pending := []; ready := false; fs := f; trace := tr |}.

Lemma dq_open_meta c f tr dep rf rp wf wp stale :
  f_meta f = Some (print_meta dep rf rp wf wp ++ stale) -> dq_open c f tr = loop_top c LOOP_FUEL (opened f tr dep rf rp wf wp).
Proof. intros H. unfold dq_open. rewrite H, meta_roundtrip. reflexivity. Qed.

Lemma dq_open_nometa c f tr : f_meta f = None -> dq_open c f tr = loop_top c LOOP_FUEL (opened f tr 0 0 0 0 0).
Proof. intros H. unfold dq_open. rewrite H. reflexivity. Qed.

Lemma dq_reopen c d :
  dq_open c (fs (dq_close d)) (trace (dq_close d)) =
  loop_top c LOOP_FUEL (opened (fs (dq_close d)) (trace (dq_close d)) (depth d) (readFileNum d) (readPos d) (writeFileNum d) (writePos d)).
Proof. destruct (meta_text_stale d) as [stale E]. apply (dq_open_meta c _ _ _ _ _ _ _ stale). rewrite <- E. reflexivity. Qed.

Lemma dq_run_cons c d o ops :
  dq_run c (Some d) (o :: ops) =
  (snd (dq_step c d o) :: fst (dq_run c (fst (dq_step c d o)) ops), snd (dq_run c (fst (dq_step c d o)) ops)).
Proof. cbn [dq_run]. destruct (dq_step c d o) as [d1 out]. cbn [fst snd]. destruct (dq_run c d1 ops). reflexivity. Qed.
