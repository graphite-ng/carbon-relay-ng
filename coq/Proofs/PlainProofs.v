(* C12: what Plain.Handle hands on does not depend on how the stream is chopped. *)
From CRNG Require Import Base.Bytes Model.Plain.

Lemma split_lines_app a : forall b acc,
  split_lines (a ++ b) acc =
  let '(l1, r1) := split_lines a acc in
  let '(l2, r2) := split_lines b (rev r1) in (l1 ++ l2, r2).
Proof.
  induction a as [|c a IH]; intros b acc; simpl.
  - rewrite rev_involutive. destruct (split_lines b acc); reflexivity.
  - destruct (c =? 10); [|apply IH].
    rewrite IH. destruct (split_lines a []) as [l1 r1]. destruct (split_lines b (rev r1)) as [l2 r2]. reflexivity.
Qed.

Lemma split_lines_nonl p : forall d acc, ~ In 10 p -> split_lines (p ++ d) acc = split_lines d (rev p ++ acc).
Proof.
  induction p as [|c p IH]; intros d acc H; simpl; [reflexivity|].
  destruct (N.eqb_spec c 10) as [->|_]; [destruct H; left; reflexivity|].
  rewrite IH, <- app_assoc by (intros Hi; apply H; right; exact Hi). reflexivity.
Qed.

Lemma split_lines_rest_nonl d : forall acc ls r, split_lines d acc = (ls, r) -> ~ In 10 acc -> ~ In 10 r.
Proof.
  induction d as [|c d IH]; intros acc ls r H Ha; simpl in H.
  - injection H as _ <-. rewrite <- in_rev. exact Ha.
  - destruct (N.eqb_spec c 10) as [_|Hc].
    + destruct (split_lines d []) as [l1 r1] eqn:E1. injection H as _ <-. eapply IH; [exact E1|intros []].
    + eapply IH; [exact H|]. intros [Hi|Hi]; [exact (Hc Hi)|exact (Ha Hi)].
Qed.

Lemma scan_lines_split d : forall acc n ls r, scan_lines d acc n = (ls, r, false) -> split_lines d acc = (ls, r).
Proof.
  induction d as [|c d IH]; intros acc n ls r H; simpl in *.
  - inversion H; reflexivity.
  - destruct (c =? 10).
    + destruct (scan_lines d [] 0) as [[l1 r1] t1] eqn:E1. inversion H; subst. rewrite (IH _ _ _ _ E1). reflexivity.
    + destruct (MAX_TOKEN <=? n + 1); [discriminate|]. eapply IH; exact H.
Qed.

(* the data a script delivers up to and including its final (EOF / error) read *)
Fixpoint data_of (script : list rres) : bytes :=
  match script with
  | [] => []
  | RData b :: r => b ++ data_of r
  | RDataEof b :: _ | RDataErr b :: _ => b
  | REof :: _ | RErr :: _ => []
  end.

(* one read: the scanner holds pending (no newline in it), reads d and goes on with what follows the last newline *)
Lemma spec_lines_read pending d more l1 rest :
  ~ In 10 pending -> split_lines d (rev pending) = (l1, rest) ->
  spec_lines (pending ++ d ++ more) = l1 ++ spec_lines (rest ++ more) /\ ~ In 10 rest.
Proof.
  intros Hp ES. assert (Hr : ~ In 10 rest) by (eapply split_lines_rest_nonl; [exact ES|rewrite <- in_rev; exact Hp]).
  split; [|exact Hr]. unfold spec_lines.
  rewrite (split_lines_nonl pending), (split_lines_nonl rest), !app_nil_r, split_lines_app, ES by assumption.
  destruct (split_lines more (rev rest)) as [l2 r2]. symmetry. apply app_assoc.
Qed.

Lemma spec_lines_nonl rest : ~ In 10 rest -> spec_lines rest = finish rest.
Proof.
  intros H. unfold spec_lines. rewrite <- (app_nil_r rest) at 1. rewrite split_lines_nonl by exact H.
  cbn [split_lines]. rewrite app_nil_r, rev_involutive. reflexivity.
Qed.

(* what a read delivers, and whether it is the last *)
Definition read_data (r : rres) : bytes := match r with RData b | RDataEof b | RDataErr b => b | REof | RErr => [] end.
Definition read_fin (r : rres) : option status :=
  match r with RData _ => None | RDataEof _ | REof => Some SOk | RDataErr _ | RErr => Some SErr end.

Lemma plain_handle_eq r script pending e :
  plain_handle (r :: script) pending e =
  let '(ls, rest, toolong) := scan_lines (read_data r) (rev pending) (N.of_nat (length pending)) in
  if toolong then (ls, STooLong) else
  match read_fin r with
  | Some st => (ls ++ finish rest, st)
  | None =>
      match read_data r with
      | [] => if Nat.leb 100 e then (ls ++ finish rest, SNoProgress)
              else let '(ls', st) := plain_handle script rest (S e) in (ls ++ ls', st)
      | _ => let '(ls', st) := plain_handle script rest 0 in (ls ++ ls', st)
      end
  end.
Proof. destruct r; reflexivity. Qed.

Lemma data_of_eq r script :
  data_of (r :: script) = read_data r ++ match read_fin r with None => data_of script | Some _ => [] end.
Proof. destruct r; cbn [data_of read_data read_fin]; rewrite ?app_nil_r; reflexivity. Qed.

(* Every way of chopping a stream into reads (any cut positions, empty reads, data together with
   EOF or with an error) yields the lines of the stream, as long as the scanner neither hits its
   token limit nor gives up on 100 empty reads. *)
Theorem chunk_invariance script : forall pending empties ls st,
  plain_handle script pending empties = (ls, st) ->
  (st = SOk \/ st = SErr) -> ~ In 10 pending ->
  ls = spec_lines (pending ++ data_of script).
Proof.
  induction script as [|r script IH]; intros pending empties ls st H Hst Hp.
  - injection H as _ <-. destruct Hst; discriminate.
  - rewrite plain_handle_eq in H. rewrite data_of_eq.
    destruct (scan_lines _ _ _) as [[l1 rest] tl] eqn:ES.
    destruct tl; [injection H as _ <-; destruct Hst; discriminate|]. apply scan_lines_split in ES.
    set (more := match read_fin r with None => data_of script | Some _ => [] end).
    destruct (spec_lines_read _ _ more _ _ Hp ES) as [-> Hrest]. subst more.
    assert (Hrec : forall e ls', plain_handle script rest e = (ls', st) ->
                                 l1 ++ ls' = l1 ++ spec_lines (rest ++ data_of script))
      by (intros e ls' Hr; rewrite (IH _ _ _ _ Hr Hst Hrest); reflexivity).
    destruct (read_fin r) as [st0|].
    + injection H as <- _. rewrite app_nil_r, spec_lines_nonl by exact Hrest. reflexivity.
    + destruct (read_data r); [destruct (Nat.leb 100 empties); [injection H as _ <-; destruct Hst; discriminate|]|];
        destruct (plain_handle script rest _) as [ls' st'] eqn:Er; injection H as <- <-; exact (Hrec _ _ Er).
Qed.

Corollary plain_chunk_invariance script ls st :
  plain script = (ls, st) -> (st = SOk \/ st = SErr) -> ls = spec_lines (data_of script).
Proof. intros H Hs. apply (chunk_invariance script [] 0 ls st H Hs). intros []. Qed.

(* the limit: raw lines shorter than 64 KiB never trip the scanner *)
Fixpoint lines_fit (s : bytes) (n : N) : bool :=
  match s with
  | [] => true
  | c :: s' => if c =? 10 then lines_fit s' 0 else (n + 1 <? MAX_TOKEN) && lines_fit s' (n + 1)
  end.

Lemma scan_fits a : forall b acc,
  lines_fit (a ++ b) (N.of_nat (length acc)) = true ->
  exists l r, scan_lines a acc (N.of_nat (length acc)) = (l, r, false) /\ lines_fit b (N.of_nat (length r)) = true.
Proof.
  induction a as [|c a IH]; intros b acc H; cbn [app lines_fit scan_lines] in *.
  - exists [], (rev acc). rewrite rev_length. auto.
  - destruct (c =? 10).
    + destruct (IH b [] H) as (l & r & E & Hb). cbn [length N.of_nat] in E. rewrite E. eauto.
    + apply andb_true_iff in H as [H1 H2]. rewrite N.leb_antisym, H1. cbn [negb].
      replace (N.of_nat (length acc) + 1) with (N.of_nat (length (c :: acc))) in * by (cbn [length]; lia).
      apply (IH b (c :: acc) H2).
Qed.

(* lines (and an unterminated tail) shorter than 64 KiB are never refused, however the stream is chopped *)
Theorem within_limit_never_too_long script : forall pending empties,
  lines_fit (data_of script) (N.of_nat (length pending)) = true ->
  snd (plain_handle script pending empties) <> STooLong.
Proof.
  induction script as [|r script IH]; intros pending empties H; [discriminate|].
  rewrite plain_handle_eq. rewrite data_of_eq, <- (rev_length pending) in H.
  apply scan_fits in H as (l1 & rest & ES & H2). rewrite rev_length in ES. rewrite ES.
  destruct (read_fin r) as [st0|] eqn:Ef; [destruct r; cbn in Ef |- *; congruence|].
  assert (K : forall e, snd (let '(ls', st) := plain_handle script rest e in (l1 ++ ls', st)) <> STooLong)
    by (intros e; specialize (IH rest e H2); destruct (plain_handle script rest e); exact IH).
  destruct (read_data r); [destruct (Nat.leb 100 empties); [discriminate|]|]; apply K.
Qed.

(* consumeAMQP (as repaired, b0f3629): the lines of the body, whatever their length *)
Lemma amqp_lines_spec body :
  amqp_lines body = let '(ls, rest) := split_lines body [] in ls ++ match rest with [] => [] | _ => [rest] end.
Proof. reflexivity. Qed.

Lemma amqp_matches_plain body :
  drop_cr (snd (split_lines body [])) = snd (split_lines body []) -> amqp_lines body = spec_lines body.
Proof.
  unfold amqp_lines, spec_lines. destruct (split_lines body []) as [ls rest]. cbn [snd]. intros ->. reflexivity.
Qed.

Lemma lrev_rev l : lrev l = rev l.
Proof. unfold lrev. rewrite rev_append_rev. apply app_nil_r. Qed.

Lemma drop_cr_fast_eq l : drop_cr_fast l = drop_cr l.
Proof. unfold drop_cr_fast, drop_cr. rewrite lrev_rev. destruct (rev l) as [|c r]; [reflexivity|]. rewrite lrev_rev. reflexivity. Qed.

Lemma scan_lines_fast_eq buf : forall acc n, scan_lines_fast buf acc n = scan_lines buf acc n.
Proof.
  induction buf as [|c buf IH]; intros acc n; simpl; [rewrite lrev_rev; reflexivity|].
  destruct (c =? 10); [rewrite IH, lrev_rev, drop_cr_fast_eq; reflexivity|].
  destruct (MAX_TOKEN <=? n + 1); [rewrite lrev_rev; reflexivity|apply IH].
Qed.

Lemma finish_fast_eq p : finish_fast p = finish p.
Proof. unfold finish_fast, finish. rewrite drop_cr_fast_eq. reflexivity. Qed.

Theorem plain_fast_eq script : forall pending e, plain_handle_fast script pending e = plain_handle script pending e.
Proof.
  induction script as [|r script IH]; intros pending e; cbn [plain_handle_fast plain_handle]; [reflexivity|].
  destruct (match r with RData b => (b, None) | RDataEof b => (b, Some SOk) | RDataErr b => (b, Some SErr)
                       | REof => ([], Some SOk) | RErr => ([], Some SErr) end) as [data fin].
  rewrite scan_lines_fast_eq, lrev_rev.
  destruct (scan_lines data (rev pending) (N.of_nat (length pending))) as [[ls rest] tl].
  rewrite finish_fast_eq.
  destruct data; [destruct (Nat.leb 100 e); [reflexivity|]|]; rewrite IH; reflexivity.
Qed.

Lemma split_lines_fast_eq buf : forall acc, split_lines_fast buf acc = split_lines buf acc.
Proof.
  induction buf as [|c buf IH]; intros acc; simpl; [rewrite lrev_rev; reflexivity|].
  destruct (c =? 10); [rewrite IH, lrev_rev, drop_cr_fast_eq; reflexivity|apply IH].
Qed.

Theorem amqp_lines_fast_eq body : amqp_lines_fast body = amqp_lines body.
Proof. unfold amqp_lines_fast, amqp_lines. rewrite split_lines_fast_eq. reflexivity. Qed.
