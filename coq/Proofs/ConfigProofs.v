(* C20: the destination option loop yields the documented entry; interpolation leaves undocumented '$' sequences alone. *)
From CRNG Require Import Base.Bytes Model.Config.

Definition well_typed (a : bytes * aval) : Prop := opt_type (fst a) = Some (aval_type (snd a)).

Lemma read_opts_assign a r acc : well_typed a ->
  read_opts (assign_tokens a ++ r) acc = read_opts r (kv_set acc (fst a) (aval_txt (snd a))).
Proof.
  unfold well_typed. destruct a as [k v]. simpl. intros H. rewrite H. destruct v; reflexivity.
Qed.

Lemma read_opts_assigns assigns : forall acc r, Forall well_typed assigns ->
  read_opts (flat_map assign_tokens assigns ++ r) acc = read_opts r (entry acc (map assign_kv assigns)).
Proof.
  induction assigns as [|a assigns IH]; intros acc r H; [reflexivity|].
  inversion H as [|? ? Ha Hr]; subst. cbn [flat_map map].
  rewrite <- app_assoc, read_opts_assign, IH by assumption. reflexivity.
Qed.

(* a destination as written: address, then its options *)
Definition dest_tokens (d : bytes * list (bytes * aval)) : list tok := TWord (fst d) :: flat_map assign_tokens (snd d).
Definition dest_entry (d : bytes * list (bytes * aval)) : list kv :=
  entry (kv_set dest_defaults S_addr (fst d)) (map assign_kv (snd d)).

Fixpoint dests_tokens (ds : list (bytes * list (bytes * aval))) : list tok :=
  match ds with
  | [] => []
  | [d] => dest_tokens d
  | d :: ds' => dest_tokens d ++ TSep :: dests_tokens ds'
  end.

Lemma read_destination_spec d : Forall well_typed (snd d) ->
  read_destination (dest_tokens d) = Some (dest_entry d, []) /\
  forall r, read_destination (dest_tokens d ++ TSep :: r) = Some (dest_entry d, r).
Proof.
  intros Hd. unfold dest_tokens, dest_entry, read_destination. cbn [app]. split.
  - rewrite <- (app_nil_r (flat_map _ _)), read_opts_assigns by exact Hd. reflexivity.
  - intros r. rewrite read_opts_assigns by exact Hd. reflexivity.
Qed.

(* several destinations separated by the double space: every option lands on its own destination *)
Theorem read_destinations_spec ds : forall fuel,
  Forall (fun d => Forall well_typed (snd d)) ds -> (length ds < fuel)%nat ->
  read_destinations fuel (dests_tokens ds) = Some (map dest_entry ds).
Proof.
  induction ds as [|d ds IH]; intros fuel H Hf.
  - destruct fuel; [inversion Hf|reflexivity].
  - inversion H as [|? ? Hd Hr]; subst. destruct fuel as [|f]; [inversion Hf|].
    destruct (read_destination_spec d Hd) as [I1 I2].
    destruct ds as [|d2 ds'].
    + unfold dests_tokens, dest_tokens in *. cbn [read_destinations]. rewrite I1.
      destruct f; [simpl in Hf; lia|]. reflexivity.
    + specialize (I2 (dests_tokens (d2 :: ds'))).
      change (dests_tokens (d :: d2 :: ds')) with (dest_tokens d ++ TSep :: dests_tokens (d2 :: ds')).
      unfold dest_tokens in I2 |- *. cbn [app read_destinations] in I2 |- *.
      rewrite I2, (IH f Hr) by (simpl in *; lia). reflexivity.
Qed.

Lemma span_name_app t : let '(a, b) := span_name t in t = a ++ b.
Proof.
  induction t as [|c t IH]; simpl; [reflexivity|].
  destruct (is_name_char c); [|reflexivity]. destruct (span_name t) as [a b]. simpl. f_equal. exact IH.
Qed.

(* a text that refers to no documented variable is left exactly as it is: $1, ${1}, $$, "${", ... included.
   No fuel is too little for this: where it runs out, expand_go hands the rest back as it is and refs stops reading. *)
Theorem expand_identity_any vars fuel : forall t,
  (forall n, In n (refs fuel t) -> kv_get vars n = None) -> expand_go fuel vars t = t.
Proof.
  induction fuel as [|f IH]; intros t Hr; [reflexivity|].
  destruct t as [|c t']; [reflexivity|]. cbn [expand_go refs] in *.
  destruct (N.eqb_spec c 36) as [->|_]; cbn [negb] in *; [|rewrite IH; auto].
  destruct t' as [|c2 t'']; [cbn [span_name] in *; rewrite IH; auto|].
  destruct (N.eqb_spec c2 123) as [->|_].
  - (* ${NAME} *)
    pose proof (span_name_app t'') as Hs.
    destruct (span_name t'') as [[|n0 name'] [|c3 rest']]; try (rewrite IH; auto; fail).
    destruct (N.eqb_spec c3 125) as [->|_]; [|rewrite IH; auto].
    rewrite (Hr _ (or_introl eq_refl)), IH, Hs; auto. intros n Hin. apply Hr. right. exact Hin.
  - (* $NAME *)
    pose proof (span_name_app (c2 :: t'')) as Hs.
    destruct (span_name (c2 :: t'')) as [[|n0 name'] rest]; [rewrite IH; auto|].
    rewrite (Hr _ (or_introl eq_refl)), IH, Hs; auto. intros n Hin. apply Hr. right. exact Hin.
Qed.

Theorem expand_identity vars fuel : forall t,
  (length t < fuel)%nat -> (forall n, In n (refs fuel t) -> kv_get vars n = None) -> expand_go fuel vars t = t.
Proof. intros t _. apply expand_identity_any. Qed.
