(* C13: the protocol 0 pickler model (text opcodes) is decoded into the equivalent plain-text lines, given that parsing
   the repr() of a float that occurs gives back that float. *)
From CRNG Require Import Base.Bytes Model.PickleVM Model.PickleIn Model.PyPickle Proofs.DecimalProofs Proofs.PickleExec Proofs.PickleInProofs Proofs.PickleIn1.
From Coq Require Import ZifyBool.

Local Open Scope N_scope.

Definition small_int (n : N) : Prop := n < 2147483648.

Section Steps0.
  Variable pf : bytes -> option N.
  Variable frepr : N -> bytes.
  Notation yields := (yields pf false).
  Notation exec := (exec pf false).

  (* The float texts go through two oracles: frepr (CPython's repr, by bits) and pf (strconv.ParseFloat).  They need
     only agree on the floats that occur: no pair of real oracles agrees on all bit patterns, since every NaN prints
     as "nan". *)
  Definition num_reads_back (x : pynum) : Prop :=
    match x with
    | PyFloat b => pf (frepr b) = Some b /\ ~ In 10 (frepr b) /\ ~ In 13 (frepr b)
    | PyInt _ => True
    end.
  Definition dp_reads_back (d : pydp) : Prop := num_reads_back (d_ts d) /\ num_reads_back (d_val d).

  (* the text opcodes that only protocol 0 uses: LIST, PUT, FLOAT, UNICODE *)
  Lemma yields_list l rest st0 st v :
    split_mark st0 [] = Some (l, st) -> yields rest (VList l :: st) v -> yields (108 :: rest) st0 v.
  Proof.
    intros E. apply (yields_step pf false 108 []). intros mem. exists mem.
    unfold step. cbn [N.eqb Pos.eqb orb stk]. rewrite E. reflexivity.
  Qed.

  Lemma exec_put0 i x st : exec (put0 i) (x :: st) (x :: st).
  Proof.
    intros rest v. unfold put0. cbn [app]. apply yields_step. intros mem. eexists.
    rewrite <- app_assoc. unfold step. cbn [N.eqb Pos.eqb orb stk app]. unfold with_line.
    rewrite read_line_app by (apply N_to_dec_not_in; reflexivity). reflexivity.
  Qed.

  Lemma exec_enc_num0 x st : num_ok x = true -> num_reads_back x -> exec (enc_num0 frepr x) st (num_val x :: st).
  Proof.
    intros Hx Hr rest v Y. destruct x as [n|bits]; cbn [num_ok] in Hx; cbn [enc_num0 num_val app].
    - rewrite <- app_assoc. apply yields_int; [lia | exact Y].
    - revert Y. apply (yields_step pf false 70 (frepr bits ++ [10])). intros mem. exists mem.
      rewrite <- app_assoc. unfold step. cbn [N.eqb Pos.eqb orb app]. unfold with_line.
      destruct Hr as (H0 & H1 & H2). rewrite read_line_app by assumption. rewrite H0. reflexivity.
  Qed.

  Lemma v_decode_plain s : forall acc, forallb plain_char s = true -> v_decode (length s) s acc = VOk (rev acc ++ s).
  Proof.
    induction s as [|c s IH]; intros acc H; cbn [length v_decode].
    - rewrite app_nil_r. reflexivity.
    - cbn [forallb] in H. apply andb_true_iff in H as [Hc Hs]. unfold plain_char in Hc.
      destruct (c =? 39) eqn:E39.
      + apply N.eqb_eq in E39. subst c. rewrite (IH (39 :: acc) Hs). cbn [rev]. rewrite <- app_assoc. reflexivity.
      + replace (c =? 92) with false by lia. replace (c <? 128) with true by lia.
        rewrite (IH (c :: acc) Hs). cbn [rev]. rewrite <- app_assoc. reflexivity.
  Qed.

  Lemma plain_no c s : forallb plain_char s = true -> plain_char c = false -> ~ In c s.
  Proof. intros H Hc Hin. rewrite forallb_forall in H. rewrite (H c Hin) in Hc. discriminate. Qed.

  Lemma yields_name0 s rest st v :
    forallb plain_char s = true -> yields rest (VStr s :: st) v -> yields (86 :: s ++ 10 :: rest) st v.
  Proof.
    intros Hs. change (10 :: rest) with ([10] ++ rest). rewrite app_assoc. apply yields_step. intros mem. exists mem.
    rewrite <- app_assoc. unfold step. cbn [N.eqb Pos.eqb orb app]. unfold with_line.
    rewrite read_line_app by (apply (plain_no _ _ Hs); reflexivity).
    rewrite (v_decode_plain s [] Hs). reflexivity.
  Qed.

  (* every item ends with its own APPEND *)
  Lemma exec_enc_item0 d i xs st :
    dp_ok0 d = true -> dp_reads_back d -> exec (enc_item0 frepr d i) (VList xs :: st) (VList (xs ++ [item_val d]) :: st).
  Proof.
    intros Hd [Rt Rv] rest v Y. unfold dp_ok0 in Hd. apply andb_true_iff in Hd as [Hd Hv]. apply andb_true_iff in Hd as [Hn Ht].
    unfold enc_item0. rewrite <- !app_assoc. cbn [app].
    apply yields_mark, yields_name0; [exact Hn|]. apply exec_put0, yields_mark, exec_enc_num0; [exact Ht | exact Rt|].
    apply exec_enc_num0; [exact Hv | exact Rv|].
    apply yields_mark_tuple2; [apply num_val_not_mark | apply num_val_not_mark|].
    apply exec_put0, yields_mark_tuple2; [discriminate | discriminate|]. apply exec_put0, yields_append, Y.
  Qed.

  Lemma exec_enc_items0 ds : forall i xs st,
    forallb dp_ok0 ds = true -> Forall dp_reads_back ds ->
    exec (enc_items0 frepr ds i) (VList xs :: st) (VList (xs ++ map item_val ds) :: st).
  Proof.
    induction ds as [|d ds IH]; intros i xs st Hok Hrb; cbn [enc_items0 map].
    - rewrite app_nil_r. apply exec_nil.
    - cbn [forallb] in Hok. apply andb_true_iff in Hok as [Hd Hok]. inversion Hrb as [|? ? Rd Rr]; subst.
      replace (xs ++ item_val d :: map item_val ds) with ((xs ++ [item_val d]) ++ map item_val ds) by (rewrite <- app_assoc; reflexivity).
      exact (exec_app pf false _ _ _ _ _ (exec_enc_item0 d i xs st Hd Rd) (IH (i + 3) _ st Hok Rr)).
  Qed.

  Theorem unpickle_py_dumps0 ds :
    forallb dp_ok0 ds = true -> Forall dp_reads_back ds ->
    unpickle pf false (py_dumps0 frepr ds) = RDone (VList (map item_val ds)).
  Proof.
    intros Hok Hrb. apply yields_unpickle. unfold py_dumps0. cbn [app]. apply yields_mark.
    apply (yields_list [] _ _ []); [reflexivity|]. apply exec_put0, (exec_enc_items0 ds 1 [] [] Hok Hrb), yields_stop.
  Qed.
End Steps0.

Section Conn0.
  Variable pf : bytes -> option N.
  Variable frepr : N -> bytes.
  Hypothesis pf_repr : forall b, pf (frepr b) = Some b.
  Hypothesis repr_line : forall b, ~ In 10 (frepr b) /\ ~ In 13 (frepr b).
  Variable fmt6 fmt0 : N -> bytes.

  Definition frame_ok0 (ds : list pydp) : Prop :=
    forallb dp_ok0 ds = true /\ N.of_nat (length (py_dumps0 frepr ds)) <= max_payload.

  (* C13 asks the oracles to agree on every bit pattern *)
  Lemma unpickle_py_dumps0_all ds :
    forallb dp_ok0 ds = true -> unpickle pf false (py_dumps0 frepr ds) = RDone (VList (map item_val ds)).
  Proof.
    intros Hok. apply unpickle_py_dumps0; [exact Hok|].
    assert (Hx : forall x, num_reads_back pf frepr x) by (intros [n|b]; [exact I | split; [apply pf_repr | apply repr_line]]).
    apply Forall_forall. intros d _. split; apply Hx.
  Qed.

  Lemma frame_ok0_carries ds : frame_ok0 ds -> carries pf fmt6 fmt0 (py_dumps0 frepr ds) ds.
  Proof.
    intros [Hok Hmax].
    apply (carries_intro _ _ _ item_val); [apply handle_item_val | apply unpickle_py_dumps0_all, Hok | reflexivity | exact Hmax].
  Qed.
End Conn0.
