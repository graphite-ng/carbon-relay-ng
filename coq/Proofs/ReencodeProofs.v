(* C16: the pickle round trip, the datapoint parser, rule selection and the metric record. *)
From CRNG Require Import Base.Bytes Base.Decimal Base.Order Lib.Utf8 Lib.Regex Model.Fields Model.Matcher Model.PickleVM Model.Reencode Proofs.PickleExec.
From Coq Require Import ZifyBool Permutation.
Local Open Scope N_scope.

Section Run.
  Variable pf : bytes -> option N.
  Variable py : bool.

  Lemma exec_og_str name st : N.of_nat (length name) < 4294967296 -> exec pf py (og_str name) st (VStr name :: st).
  Proof.
    intros Hl rest v Y. unfold og_str. destruct (N.of_nat (length name) <? 256).
    - apply yields_short_binstring, Y.
    - cbn [app]. rewrite <- app_assoc. apply yields_binstring; [exact Hl | exact Y].
  Qed.

  (* og-rek's encodeInt: BININT1, BININT2, BININT, and the decimal INT from 2^31 on *)
  Lemma exec_og_int ts st : ts < 4294967296 -> exec pf py (og_int ts) st (VInt (Z.of_N ts) :: st).
  Proof.
    intros Hts rest v Y. unfold og_int.
    destruct ((0 <? ts) && (ts <? 255)); [apply yields_binint1, Y|].
    destruct ((0 <? ts) && (ts <? 65535)) eqn:E2; [apply yields_binint2; [lia | exact Y]|].
    destruct (ts <=? 2147483647) eqn:E3; [apply yields_binint; [lia | exact Y]|].
    cbn [app]. rewrite <- app_assoc. apply yields_int; [lia | exact Y].
  Qed.

  Definition dp_value (name : bytes) (ts bits : N) : pv :=
    VList [VTuple [VStr name; VTuple [VInt (Z.of_N ts); VFloat bits]]].
End Run.

Theorem pickle_roundtrip pf py name ts bits :
  N.of_nat (length name) < 4294967296 -> ts < 4294967296 -> bits < 18446744073709551616 ->
  unpickle pf py (og_pickle_dp name ts bits) = RDone (dp_value name ts bits).
Proof.
  intros Hn Hts Hb. apply yields_unpickle. unfold og_pickle_dp, og_float. cbn [app].
  apply yields_empty_list, yields_mark, yields_mark, (exec_og_str pf py name _ Hn), yields_mark, (exec_og_int pf py ts _ Hts).
  apply yields_binfloat; [exact Hb|].
  eapply yields_tuple; [reflexivity|]. eapply yields_tuple; [reflexivity|]. eapply yields_appends; [reflexivity|].
  apply yields_stop.
Qed.

Theorem frame_header name ts bits :
  N.of_nat (length (og_pickle_dp name ts bits)) < 4294967296 ->
  exists hdr, take 4 (pickle_frame name ts bits) = Some (hdr, og_pickle_dp name ts bits)
              /\ be_num hdr = N.of_nat (length (og_pickle_dp name ts bits)).
Proof.
  intros H. exists (be_bytes 4 (N.of_nat (length (og_pickle_dp name ts bits)))). split.
  - apply take_be_bytes.
  - apply be_num_be_bytes_small. exact H.
Qed.

Theorem parse_dp_spec pf line n b ts :
  parse_dp pf line = Some (n, b, ts) <->
  exists v t, fields line = [n; v; t] /\ pf v = Some b /\ dec_parse t = Some ts /\ ts < 4294967296.
Proof.
  unfold parse_dp, parse_uint32. split.
  - destruct (fields line) as [|n' [|v [|t [|? ?]]]]; try discriminate.
    destruct (pf v) as [b'|] eqn:Ev; [|discriminate].
    destruct (dec_parse t) as [k|] eqn:Et; [|discriminate].
    destruct (k <? 4294967296) eqn:Ek; [|discriminate].
    intros H. inversion H; subst. exists v, t. repeat split; auto. lia.
  - intros [v [t [-> [-> [-> Hts]]]]]. replace (ts <? 4294967296) with true by lia. reflexivity.
Qed.

Theorem unrepresentable_skipped pf line :
  (forall n v t, fields line = [n; v; t] ->
     pf v = None \/ dec_parse t = None \/ exists k, dec_parse t = Some k /\ 4294967296 <= k) ->
  pickle_write pf line = ([], true).
Proof.
  intros H. unfold pickle_write.
  destruct (parse_dp pf line) as [[[n b] ts]|] eqn:E; [|reflexivity].
  apply parse_dp_spec in E as [v [t [Hf [Hv [Ht Hts]]]]].
  destruct (H n v t Hf) as [H1|[H1|[k [H1 H2]]]]; try congruence.
  rewrite H1 in Ht. inversion Ht. lia.
Qed.

Theorem representable_written pf line n v t b ts :
  fields line = [n; v; t] -> pf v = Some b -> dec_parse t = Some ts -> ts < 4294967296 ->
  pickle_write pf line = (pickle_frame n ts b, false).
Proof.
  intros Hf Hv Ht Hts. unfold pickle_write. rewrite (proj2 (parse_dp_spec pf line n b ts)); [reflexivity|].
  exists v, t. auto.
Qed.

Lemma ordered_sorted rs : sorted rle (ordered rs).
Proof. apply isort_sorted; unfold rle; lia. Qed.

Lemma in_combine_seq (l : list rule) : forall base i r,
  In (i, r) (combine (seq base (length l)) l) <-> exists k, i = (base + k)%nat /\ nth_error l k = Some r.
Proof.
  induction l as [|x l IH]; intros base i r; cbn [length seq combine In].
  - split; [intros [] | intros [[|k] [_ H]]; discriminate H].
  - rewrite IH. split.
    + intros [E|[k [-> H]]]; [inversion E; exists 0%nat | exists (S k)]; split; auto; lia.
    + intros [[|k] [-> H]]; [left; inversion H; f_equal; lia | right; exists k; split; [lia | exact H]].
Qed.

Lemma in_ordered rs i r : In (i, r) (ordered rs) <-> nth_error rs i = Some r.
Proof.
  unfold ordered. split; intros H.
  - apply (Permutation_in _ (Permutation_sym (isort_perm rle (index_rules rs)))), in_combine_seq in H as [k [-> H]]. exact H.
  - apply (Permutation_in _ (isort_perm rle (index_rules rs))), in_combine_seq. exists i. auto.
Qed.

Section Select.
  Variable search : rx -> bytes -> bool.

  Theorem select_spec rs key i r :
    N.of_nat (length rs) < 4294967296 ->
    select search rs key = Some (i, r) ->
    nth_error rs i = Some r /\ search (r_rx r) key = true /\
    forall j r', nth_error rs j = Some r' -> search (r_rx r') key = true ->
      (r_prio r' < r_prio r)%Z \/ (r_prio r' = r_prio r /\ (i <= j)%nat).
  Proof.
    intros Hlen H. unfold select in H. destruct (find_some _ _ H) as [Hin Hm]. apply in_ordered in Hin.
    split; [exact Hin|]. split; [exact Hm|].
    intros j r' Hj Hm'.
    assert (Hj' : (j < length rs)%nat) by (apply nth_error_Some; congruence).
    apply in_ordered in Hj. destruct (find_sorted rle _ _ _ (ordered_sorted rs) H (j, r') Hj Hm') as [E|Hle].
    - inversion E; subst. right. split; [reflexivity | lia].
    - unfold rle, rkey in Hle. cbn [fst snd] in Hle. lia.
  Qed.

  Theorem select_none rs key :
    select search rs key = None <-> forall j r', nth_error rs j = Some r' -> search (r_rx r') key = false.
  Proof.
    unfold select. split.
    - intros H j r' Hj. apply in_ordered in Hj.
      exact (find_none _ _ H _ Hj).
    - intros H. destruct (find _ (ordered rs)) as [[i r]|] eqn:E; [|reflexivity].
      apply find_some in E as [Hin Hm]. apply in_ordered in Hin. cbn [snd] in Hm. rewrite (H _ _ Hin) in Hm. discriminate.
  Qed.
End Select.

Section Record.
  Variable pf : bytes -> option N.
  Variable search : rx -> bytes -> bool.

  Theorem metric_record rs org line md :
    parse_metric pf search rs org line = Some md ->
    exists nwt v t i r,
      fields line = [nwt; v; t] /\
      md_name md = eat_dots (hd [] (split_on 59 nwt)) /\
      Permutation (tl (split_on 59 nwt)) (md_tags md) /\ sorted bleb (md_tags md) /\
      forallb valid_tag (md_tags md) = true /\
      pf v = Some (md_val md) /\ dec_parse t = Some (md_time md) /\ md_time md < 4294967296 /\
      md_org md = org /\ org <> 0%Z /\
      select search rs (presented (hd [] (split_on 59 nwt)) (md_tags md)) = Some (i, r) /\
      first_precision (r_ret r) = Some (md_interval md).
  Proof.
    unfold parse_metric.
    destruct (fields line) as [|nwt [|v [|t [|? ?]]]]; try discriminate.
    destruct (pf v) as [b|] eqn:Ev; [|discriminate].
    unfold parse_uint32. destruct (dec_parse t) as [k|] eqn:Et; [|discriminate].
    destruct (k <? 4294967296) eqn:Ek; [|discriminate].
    destruct (select search rs _) as [[i r]|] eqn:Es; [|discriminate].
    cbn [snd]. destruct (first_precision (r_ret r)) as [iv|] eqn:Ep; [|discriminate].
    destruct (negb (org =? 0)%Z && negb (iv =? 0)%Z && nonempty (eat_dots (hd [] (split_on 59 nwt)))
              && utf8_valid (eat_dots (hd [] (split_on 59 nwt)))
              && forallb valid_tag (isort bleb (tl (split_on 59 nwt)))) eqn:Ec; [|discriminate].
    intros H. inversion H; subst; clear H. cbn [md_name md_tags md_val md_time md_org md_interval].
    repeat (apply andb_true_iff in Ec as [Ec ?]).
    exists nwt, v, t, i, r. repeat split; auto.
    - apply isort_perm.
    - apply isort_sorted_to, bleb_total_order.
    - lia.
    - intros ->. discriminate Ec.
  Qed.

  Theorem invalid_tag_no_record rs org nwt v t line :
    fields line = [nwt; v; t] ->
    existsb (fun tg => negb (valid_tag tg)) (tl (split_on 59 nwt)) = true ->
    parse_metric pf search rs org line = None.
  Proof.
    intros Hf Hbad.
    destruct (parse_metric pf search rs org line) as [md|] eqn:E; [|reflexivity].
    apply metric_record in E as [nwt' [v' [t' [i [r [Hf' [_ [Hperm [_ [Hv _]]]]]]]]]].
    rewrite Hf in Hf'. inversion Hf'; subst.
    apply existsb_exists in Hbad as [tg [Hin Hb]].
    apply (Permutation_in _ Hperm) in Hin. rewrite forallb_forall in Hv. rewrite (Hv _ Hin) in Hb. discriminate.
  Qed.
End Record.

(* the premises are satisfiable: a concrete line, two matching rules, the anchored one wins on priority *)
Example record_example :
  let rs := [ {| r_rx := {| rx_src := [46;42]; rx_ast := Star true Any |}; r_prio := 0; r_ret := [49;48;115;58;49;100] |};
              {| r_rx := {| rx_src := [94;97;36]; rx_ast := Cat Bol (Cat (Chr 97) Eol) |}; r_prio := 1; r_ret := [54;48;58;49;48] |} ] in
  parse_metric (fun _ => Some 4607182418800017408) rx_search rs 1 [97; 32; 49; 32; 53]
  = Some {| md_name := [97]; md_tags := []; md_val := 4607182418800017408; md_time := 5; md_org := 1; md_interval := 60 |}.
Proof. vm_compute. reflexivity. Qed.

Example roundtrip_example :
  unpickle (fun _ => None) true (og_pickle_dp [102;111;111] 1500000000 4607182418800017408)
  = RDone (dp_value [102;111;111] 1500000000 4607182418800017408).
Proof. vm_compute. reflexivity. Qed.
