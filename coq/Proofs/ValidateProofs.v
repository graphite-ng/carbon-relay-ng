(* C02: the executable validator is the documented grammar. *)
From CRNG Require Import Base.ListX Base.Bytes Model.Fields Model.Validate.

Definition key_char (c : N) : bool := negb ((c =? 59) || (c =? 33) || (c =? 61)).   (* not ; ! = *)
Definition val_char (c : N) : bool := negb ((c =? 59) || (c =? 61)).                (* not ; = *)

(* (;key=value)+  with non-empty key over [^;!=] and non-empty value over [^;=] *)
Inductive appendix_ok : bytes -> Prop :=
| ap_last k v : k <> [] -> v <> [] -> forallb key_char k = true -> forallb val_char v = true ->
                appendix_ok (59 :: k ++ 61 :: v)
| ap_more k v rest : k <> [] -> v <> [] -> forallb key_char k = true -> forallb val_char v = true ->
                     appendix_ok rest -> appendix_ok (59 :: k ++ 61 :: v ++ rest).

Lemma appendix_ok_head s : appendix_ok s -> exists r, s = 59 :: r.
Proof. intros [k v|k v rest]; eauto. Qed.

Lemma tag_key_cons c s : key_char c = true -> tag_key (c :: s) = tag_key s.
Proof.
  unfold key_char. simpl. destruct (c =? 61); [rewrite orb_true_r; discriminate|].
  destruct ((c =? 59) || (c =? 33)); [discriminate|reflexivity].
Qed.

Lemma tag_val_cons c s : val_char c = true -> tag_val (c :: s) = tag_val s.
Proof. unfold val_char. simpl. destruct (c =? 59); [discriminate|]. destruct (c =? 61); [discriminate|reflexivity]. Qed.

Lemma tag_key_app k s : forallb key_char k = true -> tag_key (k ++ s) = tag_key s.
Proof.
  induction k as [|c k IH]; simpl; [reflexivity|]. intros H. apply andb_true_iff in H as [Hc Hk].
  rewrite <- (IH Hk). apply tag_key_cons, Hc.
Qed.

Lemma tag_val_app v s : forallb val_char v = true -> tag_val (v ++ s) = tag_val s.
Proof.
  induction v as [|c v IH]; simpl; [reflexivity|]. intros H. apply andb_true_iff in H as [Hc Hv].
  rewrite <- (IH Hv). apply tag_val_cons, Hc.
Qed.

(* a scan skips the key (value) characters and decides on the first other one *)
Lemma tag_key_inv s v : tag_key s = Some v -> exists k, s = k ++ 61 :: v /\ forallb key_char k = true.
Proof.
  destruct (span_split key_char s) as (k & b & -> & Fk & Hb). rewrite tag_key_app by exact Fk.
  destruct b as [|c b]; [discriminate|]. unfold key_char in Hb. simpl.
  destruct (N.eqb_spec c 61) as [->|]; [intros [= ->]; eauto|].
  rewrite orb_false_r in Hb. apply negb_false_iff in Hb. rewrite Hb. discriminate.
Qed.

Lemma tag_val_inv s o :
  tag_val s = Some o ->
  exists v, forallb val_char v = true /\
            match o with None => s = v | Some rest => s = v ++ rest /\ exists r, rest = 59 :: r end.
Proof.
  destruct (span_split val_char s) as (v & b & -> & Fv & Hb). rewrite tag_val_app by exact Fv.
  intros H. exists v. split; [exact Fv|]. destruct b as [|c b]; simpl in H.
  - injection H as <-. apply app_nil_r.
  - unfold val_char in Hb. destruct (N.eqb_spec c 59) as [->|]; [injection H as <-; eauto|].
    cbn in Hb. apply negb_false_iff in Hb. rewrite Hb in H. discriminate H.
Qed.

Lemma key_char_61 c : key_char c = true -> (c =? 61) = false.
Proof. unfold key_char. destruct (c =? 61); [rewrite orb_true_r; discriminate|reflexivity]. Qed.

Lemma val_char_59 c : val_char c = true -> (c =? 59) = false.
Proof. unfold val_char. destruct (c =? 59); [discriminate|reflexivity]. Qed.

Lemma tag_appendix_section f k v rest :
  k <> [] -> v <> [] -> forallb key_char k = true -> forallb val_char v = true ->
  tag_appendix (S f) (59 :: k ++ 61 :: v ++ rest) =
  match tag_val rest with Some None => true | Some (Some r) => tag_appendix f r | None => false end.
Proof.
  intros Hk Hv Fk Fv. destruct k as [|c1 k]; [contradiction|]. destruct v as [|c2 v]; [contradiction|].
  cbn [tag_appendix].
  replace (Nat.ltb (length (59 :: (c1 :: k) ++ 61 :: (c2 :: v) ++ rest)) 4) with false
    by (symmetry; apply Nat.ltb_ge; cbn [length app]; rewrite app_length; cbn [length]; lia).
  rewrite tag_key_app by exact Fk. cbn [app tag_key]. rewrite !N.eqb_refl. cbn [negb].
  change (c2 :: v ++ rest) with ((c2 :: v) ++ rest). rewrite tag_val_app by exact Fv.
  apply andb_true_iff in Fk as [Hc1 _], Fv as [Hc2 _]. rewrite (key_char_61 _ Hc1), (val_char_59 _ Hc2). reflexivity.
Qed.

Lemma tag_appendix_complete s : appendix_ok s -> forall fuel, (length s <= fuel)%nat -> tag_appendix fuel s = true.
Proof.
  induction 1 as [k v Hk Hv Fk Fv|k v rest Hk Hv Fk Fv Hr IH]; intros [|f] Hf; try (simpl in Hf; lia).
  - rewrite <- (app_nil_r v). rewrite tag_appendix_section by assumption. reflexivity.
  - rewrite tag_appendix_section by assumption. destruct (appendix_ok_head _ Hr) as [r ->].
    apply IH. simpl in Hf. rewrite !app_length in Hf. simpl in Hf. rewrite app_length in Hf. lia.
Qed.

Lemma tag_appendix_sound fuel : forall s, tag_appendix fuel s = true -> appendix_ok s.
Proof.
  induction fuel as [|f IH]; intros s; [discriminate|]. cbn [tag_appendix].
  destruct (Nat.ltb (length s) 4); [discriminate|].
  destruct s as [|c rest]; [discriminate|].
  destruct (N.eqb_spec c 59) as [->|]; [|discriminate]. cbn [negb].
  destruct rest as [|c1 rest']; [discriminate|].
  destruct (N.eqb_spec c1 61) as [|N1]; [discriminate|].
  destruct (tag_key (c1 :: rest')) as [v|] eqn:TK; [|discriminate].
  apply tag_key_inv in TK as [k [Hs Fk]]. rewrite Hs.
  assert (k <> []) as Hk by (intros ->; injection Hs as -> _; exact (N1 eq_refl)).
  destruct v as [|c2 v']; [discriminate|].
  destruct (N.eqb_spec c2 59) as [|N2]; [discriminate|].
  destruct (tag_val (c2 :: v')) as [o|] eqn:TV; [|discriminate].
  apply tag_val_inv in TV as [v1 [Fv Hv]].
  destruct o as [rest2|].
  - destruct Hv as [Hv [r ->]]. rewrite Hv. intros H. apply ap_more; auto.
    intros ->. injection Hv as -> _. exact (N2 eq_refl).
  - intros _. apply ap_last; auto; [discriminate | rewrite Hv; exact Fv].
Qed.

(* the fuel the validator passes (one unit per byte) is enough *)
Theorem tag_appendix_iff fuel s : (length s <= fuel)%nat -> (tag_appendix fuel s = true <-> appendix_ok s).
Proof. intros H. split; [apply tag_appendix_sound | intros A; apply tag_appendix_complete; assumption]. Qed.

Definition ascii_clean (s : bytes) : Prop := forall c, In c s -> c <> 0 /\ c < 128.

Lemma not_null_ascii_spec s i : not_null_ascii s i = None <-> ascii_clean s.
Proof.
  revert i; induction s as [|c s IH]; intros i; simpl.
  - split; [intros _ c [] | reflexivity].
  - destruct (N.eqb_spec c 0) as [E0|E0]; [|destruct (N.leb_spec 128 c) as [E1|E1]].
    + split; [discriminate|]. intros H. destruct (H c (or_introl eq_refl)). contradiction.
    + split; [discriminate|]. intros H. destruct (H c (or_introl eq_refl)). lia.
    + rewrite IH. split; [intros H x [<-|Hx]; auto | intros H x Hx; apply H; right; exact Hx].
Qed.

Lemma first_illegal_spec s : first_illegal s = None <-> forallb sensible s = true.
Proof.
  induction s as [|c s IH]; simpl; [tauto|].
  destruct (sensible c); simpl; [exact IH|]. split; discriminate.
Qed.

(* the documented rules, per level *)
Definition appendix_rule (id : bytes) : Prop :=
  match cut 59 id with
  | (_, None) => True                                   (* no tags *)
  | (key, Some a) => key <> [] /\ appendix_ok (59 :: a)
  end.

Definition name_ok (lv : level_legacy) (id : bytes) : Prop :=
  match lv with
  | NoneLegacy => True
  | MediumLegacy => appendix_rule id /\ ascii_clean id
  | StrictLegacy => appendix_rule id /\ ascii_clean id /\
                    contains [46; 46] (fst (cut 59 id)) = false /\ forallb sensible (fst (cut 59 id)) = true
  end.

(* validate_key_legacy runs three checks in turn and returns the first error *)
Lemma first_error (a b : option verr) :
  match a with Some e => Some e | None => b end = None <-> a = None /\ b = None.
Proof. destruct a; intuition congruence. Qed.

Lemma appendix_check (key : bytes) app :
  match app with
  | None => None
  | Some a => match key with
              | [] => Some ErrEmptyKey
              | _ => if tag_appendix (S (length a)) (59 :: a) then None else Some ErrInvalidTagAppendix
              end
  end = None <->
  match app with None => True | Some a => key <> [] /\ appendix_ok (59 :: a) end.
Proof.
  destruct app as [a|]; [|tauto]. rewrite <- (tag_appendix_iff (S (length a)) (59 :: a)) by (simpl; lia).
  destruct key, (tag_appendix _ _); intuition congruence.
Qed.

Lemma strict_check key :
  (if contains [46; 46] key then Some ErrEmptyNode
   else match first_illegal key with Some c => Some (ErrIllegalChar c) | None => None end) = None <->
  contains [46; 46] key = false /\ forallb sensible key = true.
Proof.
  rewrite <- first_illegal_spec. destruct (contains _ key), (first_illegal key); intuition congruence.
Qed.

Theorem validate_key_legacy_grammar id lv : validate_key_legacy id lv = None <-> name_ok lv id.
Proof.
  unfold validate_key_legacy, name_ok, appendix_rule.
  destruct lv; [| |tauto]; destruct (cut 59 id) as [key app]; cbv iota; cbn [fst];
    rewrite !first_error, appendix_check, ?strict_check, not_null_ascii_spec; tauto.
Qed.

Definition key_ok (ll : level_legacy) (lm : level_m20) (f0 : bytes) : Prop :=
  match get_version f0 with
  | Legacy => validate_key_legacy (strip_dot f0) ll = None
  | M20 => validate_key_m20 (strip_dot f0) lm = None
  | M20NoEquals => validate_key_m20ne (strip_dot f0) lm = None
  end.

Lemma key_ok_spec ll lm f0 :
  key_ok ll lm f0 <->
  match get_version f0 with
  | Legacy => validate_key_legacy (strip_dot f0) ll
  | M20 => validate_key_m20 (strip_dot f0) lm
  | M20NoEquals => validate_key_m20ne (strip_dot f0) lm
  end = None.
Proof. unfold key_ok. destruct (get_version f0); reflexivity. Qed.

Theorem validate_packet_valid_iff buf ll lm v s :
  snd (validate_packet buf ll lm v s) = None <->
  exists f0 f1 f2, fields buf = [f0; f1; f2] /\ key_ok ll lm f0 /\ v = true /\ s = true.
Proof.
  unfold validate_packet. split.
  - destruct (fields buf) as [|f0 [|f1 [|f2 [|f3 l]]]]; try discriminate.
    destruct (match get_version f0 with Legacy => _ | M20 => _ | M20NoEquals => _ end) eqn:K; [discriminate|].
    destruct v, s; try discriminate. intros _. exists f0, f1, f2. rewrite key_ok_spec. auto.
  - intros [f0 [f1 [f2 [-> [K [-> ->]]]]]]. apply key_ok_spec in K. rewrite K. reflexivity.
Qed.

Theorem parse_level_legacy_spec t l :
  parse_level_legacy t = Some l <->
  (t = str_strict /\ l = StrictLegacy) \/ (t = str_medium /\ l = MediumLegacy) \/ (t = str_none /\ l = NoneLegacy).
Proof.
  split.
  - unfold parse_level_legacy.
    destruct (beqb_spec t str_strict) as [->|_]; [intros [= <-]; auto|].
    destruct (beqb_spec t str_medium) as [->|_]; [intros [= <-]; auto|].
    destruct (beqb_spec t str_none) as [->|_]; [intros [= <-]; auto|]. discriminate.
  - intros [[-> ->]|[[-> ->]|[-> ->]]]; reflexivity.
Qed.

Theorem parse_level_m20_spec t l :
  parse_level_m20 t = Some l <-> (t = str_medium /\ l = MediumM20) \/ (t = str_none /\ l = NoneM20).
Proof.
  split.
  - unfold parse_level_m20.
    destruct (beqb_spec t str_medium) as [->|_]; [intros [= <-]; auto|].
    destruct (beqb_spec t str_none) as [->|_]; [intros [= <-]; auto|]. discriminate.
  - intros [[-> ->]|[-> ->]]; reflexivity.
Qed.

(* the bad-metrics report *)
Section Bad.
  Variable R : Type.
  Definition bad_map := list (bytes * R).
  Fixpoint bad_add (m : bad_map) (k : bytes) (r : R) : bad_map :=
    match m with
    | [] => [(k, r)]
    | (k', r') :: m' => if beqb k k' then (k, r) :: m' else (k', r') :: bad_add m' k r
    end.
  Fixpoint bad_get (m : bad_map) (k : bytes) : option R :=
    match m with [] => None | (k', r) :: m' => if beqb k k' then Some r else bad_get m' k end.

  Lemma bad_get_add m k r k' :
    bad_get (bad_add m k r) k' = if beqb k' k then Some r else bad_get m k'.
  Proof.
    induction m as [|[k0 r0] m IH]; simpl; [reflexivity|].
    destruct (beqb_spec k k0) as [->|Hk]; simpl.
    - destruct (beqb k' k0); reflexivity.
    - destruct (beqb_spec k' k0) as [->|_]; [|exact IH].
      rewrite (proj2 (beqb_neq k0 k)) by congruence. reflexivity.
  Qed.

  (* after any sequence of rejections, the report shows for each name the last record added under it *)
  Fixpoint last_for (l : list (bytes * R)) (k : bytes) : option R :=
    match l with
    | [] => None
    | (k', r) :: l' => match last_for l' k with Some x => Some x | None => if beqb k k' then Some r else None end
    end.

  Theorem bad_last_wins l : forall m k,
    bad_get (fold_left (fun m kr => bad_add m (fst kr) (snd kr)) l m) k =
    match last_for l k with Some r => Some r | None => bad_get m k end.
  Proof.
    induction l as [|[k0 r0] l IH]; intros m k; simpl; [reflexivity|].
    rewrite IH. destruct (last_for l k); [reflexivity|]. rewrite bad_get_add. destruct (beqb k k0); reflexivity.
  Qed.
End Bad.
