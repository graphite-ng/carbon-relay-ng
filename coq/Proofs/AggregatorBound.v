(* C11: without raw input an aggregator can only drain: however many ticks
   arrive, it emits at most what its open buckets hold (no loop, no amplification). *)
From CRNG Require Import Base.Bytes Model.Aggregator Proofs.AggregatorProofs.
Local Open Scope nat_scope.

Section Bound.
  Variable F P : Type.
  Variable pnew : F -> N -> P.
  Variable padd : P -> F -> N -> P.
  Variable pflush : P -> list (bytes * F).
  Variables interval wait : N.

  Definition lines_of (out : list (N * list (bytes * F))) : nat := length (flat_map (fun qb => snd qb) out).

  (* the number of lines the open buckets would produce if all were flushed now *)
  Definition capacity (bs : list (bucket P)) : nat :=
    length (flat_map (fun b => emit_bucket F P pflush (snd b)) bs).

  Lemma tick_lines st t :
    let '(st', out) := astep F P pnew padd pflush interval wait st (ATick F t) in
    capacity (a_buckets P st) = lines_of out + capacity (a_buckets P st').
  Proof.
    simpl. unfold flush. pose proof (split_flush_app P (a_buckets P st) (cutoff_of wait t)) as H.
    destruct (split_flush P (a_buckets P st) (cutoff_of wait t)) as [fl rest]. simpl in *. rewrite <- H.
    unfold capacity, lines_of. rewrite flat_map_app, app_length, !flat_map_concat_map, map_map. reflexivity.
  Qed.

  Fixpoint tick_run (st : astate P) (ts : list N) : nat :=
    match ts with
    | [] => 0
    | t :: r => let '(st', out) := astep F P pnew padd pflush interval wait st (ATick F t) in lines_of out + tick_run st' r
    end.

  Theorem ticks_bounded ts : forall st, tick_run st ts <= capacity (a_buckets P st).
  Proof.
    induction ts as [|t r IH]; intros st; cbn [tick_run]; [lia|].
    pose proof (tick_lines st t) as H.
    destruct (astep F P pnew padd pflush interval wait st (ATick F t)) as [st' out].
    specialize (IH st'). lia.
  Qed.
End Bound.
