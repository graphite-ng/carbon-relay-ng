(* Disk queue, byte level: the buffered read handle delivers exactly the bytes of the file at its logical
   position, whatever the state of its 4096-byte buffer; a frame that lies at that position is read back (length, then payload). *)
From CRNG Require Import Base.ListX Base.Bytes Model.DiskQueue Proofs.DQBasics.
Local Open Scope nat_scope.

(* the handle is at logical position p of the file: its buffer holds the bytes p .. h_off *)
Definition hinv (content : bytes) (h : rhandle) (p : nat) : Prop :=
  p + length (h_buf h) = h_off h /\ h_off h <= length content /\
  h_buf h = firstn (length (h_buf h)) (skipn p content).

Lemma bread_zero fuel content h acc : bread fuel content h 0 acc = Some (acc, h).
Proof. destruct fuel; reflexivity. Qed.

Lemma bread_unfold f content h n' acc :
  bread (S f) content h (S n') acc =
  match h_buf h with
  | _ :: _ =>
      let k := Nat.min (S n') (length (h_buf h)) in
      bread f content {| h_num := h_num h; h_buf := skipn k (h_buf h); h_off := h_off h |} (S n' - k) (acc ++ firstn k (h_buf h))
  | [] =>
      let avail := skipn (h_off h) content in
      match avail with
      | [] => None
      | _ =>
        if Nat.leb BUFSZ (S n') then
          let k := Nat.min (S n') (length avail) in
          bread f content {| h_num := h_num h; h_buf := []; h_off := h_off h + k |} (S n' - k) (acc ++ firstn k avail)
        else
          let k := Nat.min BUFSZ (length avail) in
          bread f content {| h_num := h_num h; h_buf := firstn k avail; h_off := h_off h + k |} (S n') acc
      end
  end.
Proof. reflexivity. Qed.

Lemma bread_buffered f content h n acc p :
  hinv content h p -> 0 < n <= length (h_buf h) ->
  exists h', bread (S f) content h n acc = Some (acc ++ firstn n (skipn p content), h')
             /\ hinv content h' (p + n) /\ h_num h' = h_num h.
Proof.
  intros Hi [Hn Hle]. destruct n as [|n']; [lia|]. rewrite bread_unfold.
  destruct (h_buf h) as [|b0 bv] eqn:Eb; [cbn [length] in Hle; lia|]. rewrite <- Eb in *. cbv zeta.
  destruct Hi as [H1 [H2 H3]].
  replace (Nat.min (S n') (length (h_buf h))) with (S n') by lia. rewrite Nat.sub_diag, bread_zero.
  exists {| h_num := h_num h; h_buf := skipn (S n') (h_buf h); h_off := h_off h |}. split; [|split; [|reflexivity]].
  - rewrite H3, firstn_firstn, Nat.min_l by lia. reflexivity.
  - unfold hinv. cbn [h_buf h_off]. rewrite skipn_length. repeat split; try lia.
    rewrite H3 at 1. rewrite skipn_firstn_comm, skipn_skipn'. reflexivity.
Qed.

(* with an empty buffer, a large read bypasses it; a small one fills it first, with enough to be served from it *)
Lemma bread_empty fuel content h n acc p :
  h_buf h = [] -> hinv content h p -> 0 < n -> p + n <= length content -> 2 <= fuel ->
  exists h', bread fuel content h n acc = Some (acc ++ firstn n (skipn p content), h')
             /\ hinv content h' (p + n) /\ h_num h' = h_num h.
Proof.
  intros Hb [H1 [H2 H3]] Hn Hlen Hf. rewrite Hb in H1. cbn [length] in H1.
  destruct fuel as [|[|f]]; try lia. destruct n as [|n']; [lia|]. set (n := S n') in *.
  assert (Hoff : h_off h = p) by lia.
  assert (Hav : length (skipn p content) = length content - p) by apply skipn_length.
  unfold n. rewrite bread_unfold. fold n. rewrite Hb, Hoff. cbv zeta.
  destruct (skipn p content) as [|a0 av] eqn:Eav; [cbn [length] in Hav; lia|]. rewrite <- Eav in *.
  destruct (Nat.leb BUFSZ n) eqn:Eb.
  - replace (Nat.min n (length (skipn p content))) with n by lia.
    rewrite Nat.sub_diag, bread_zero. eexists. split; [reflexivity|]. split; [|reflexivity].
    unfold hinv. cbn [h_buf h_off length]. repeat split; try lia.
  - apply Nat.leb_gt in Eb. set (k := Nat.min BUFSZ (length (skipn p content))).
    assert (Hlk : length (firstn k (skipn p content)) = k) by (rewrite firstn_length; lia).
    apply (bread_buffered f content {| h_num := h_num h; h_buf := firstn k (skipn p content); h_off := p + k |} n acc p);
      unfold hinv; cbn [h_buf h_off]; rewrite Hlk; repeat split; lia.
Qed.

Lemma bread_spec fuel content h n acc p :
  hinv content h p -> p + n <= length content -> 3 <= fuel ->
  exists h', bread fuel content h n acc = Some (acc ++ firstn n (skipn p content), h')
             /\ hinv content h' (p + n) /\ h_num h' = h_num h.
Proof.
  intros Hi Hlen Hf.
  destruct n as [|n'].
  { rewrite bread_zero. exists h. rewrite Nat.add_0_r. cbn [firstn]. rewrite app_nil_r. auto. }
  set (n := S n') in *.
  destruct (h_buf h) as [|b0 bv] eqn:Eb.
  { apply bread_empty; auto; unfold n; lia. }
  destruct fuel as [|f]; [lia|].
  destruct (Nat.le_gt_cases n (length (h_buf h))) as [Hle|Hgt]; [apply bread_buffered; [exact Hi | lia]|].
  (* the buffer is used up, the rest is read with an empty buffer *)
  destruct Hi as [H1 [H2 H3]]. unfold n. rewrite bread_unfold. fold n. rewrite Eb, <- Eb. cbv zeta.
  replace (Nat.min n (length (h_buf h))) with (length (h_buf h)) by lia. rewrite firstn_all, skipn_all.
  set (L := length (h_buf h)) in *.
  destruct (bread_empty f content {| h_num := h_num h; h_buf := []; h_off := h_off h |} (n - L) (acc ++ h_buf h) (p + L))
    as [h' [E [Hi' Hn']]]; try reflexivity; try lia.
  { unfold hinv. cbn [h_buf h_off length]. repeat split; try lia. }
  exists h'. split; [|split].
  + rewrite E, <- app_assoc. do 3 f_equal.
    replace n with (L + (n - L)) at 2 by lia. rewrite firstn_add_skipn, <- H3, skipn_skipn'. reflexivity.
  + replace (p + n) with (p + L + (n - L)) by lia. exact Hi'.
  + exact Hn'.
Qed.

Lemma write_at_read content pos data :
  pos <= length content ->
  firstn (length data) (skipn pos (write_at content pos data)) = data /\
  firstn pos (write_at content pos data) = firstn pos content /\
  pos + length data <= length (write_at content pos data).
Proof.
  intros H. unfold write_at. replace (pos - length content) with 0 by lia. cbn [repeat app].
  assert (Hl : length (firstn pos content) = pos) by (rewrite firstn_length; lia).
  repeat split.
  - rewrite skipn_app, Hl, Nat.sub_diag. rewrite (skipn_all2 (firstn pos content)) by lia. cbn [skipn app].
    rewrite firstn_app, Nat.sub_diag, firstn_all. cbn [firstn]. apply app_nil_r.
  - rewrite firstn_app, Hl, Nat.sub_diag. cbn [firstn]. rewrite app_nil_r. rewrite firstn_firstn, Nat.min_l by lia. reflexivity.
  - rewrite !app_length, Hl. lia.
Qed.

Lemma un_be32_be32 n : (n < 4294967296)%N -> un_be32 (be32 n) = n.
Proof. apply be32_roundtrip. Qed.

Lemma hinv_app C h p extra : hinv C h p -> hinv (C ++ extra) h p.
Proof.
  intros [H1 [H2 H3]]. unfold hinv. rewrite app_length. repeat split; try lia.
  rewrite skipn_app_le, firstn_app_le; [exact H3 | rewrite skipn_length | ]; lia.
Qed.

Lemma read_frame content h p m rest :
  hinv content h p -> (N.of_nat (length m) < 2147483648)%N -> skipn p content = frame m ++ rest ->
  exists szb h1 h2,
    bread (8 + length content) content h 4 [] = Some (szb, h1) /\ un_be32 szb = N.of_nat (length m) /\
    bread (8 + length content + length m) content h1 (length m) [] = Some (m, h2) /\
    hinv content h2 (p + 4 + length m) /\ h_num h2 = h_num h.
Proof.
  intros Hi Hm Hd. destruct (frame_roundtrip m rest) as (F1 & F2 & _); [lia|].
  assert (Hlen : p + 4 + length m <= length content).
  { apply (f_equal (@length _)) in Hd. rewrite skipn_length, app_length, frame_length in Hd. lia. }
  destruct (bread_spec (8 + length content) content h 4 [] p Hi) as (h1 & E1 & Hi1 & Hn1); [lia | lia |].
  destruct (bread_spec (8 + length content + length m) content h1 (length m) [] (p + 4) Hi1) as (h2 & E2 & Hi2 & Hn2); [lia | lia |].
  rewrite Hd in E1. rewrite <- skipn_skipn', Hd, F2 in E2.
  exists (firstn 4 (frame m ++ rest)), h1, h2. split; [exact E1|]. split; [exact F1|]. split; [exact E2|]. split; [exact Hi2 | congruence].
Qed.
