(* C17: the shard of a tagged series does not depend on the order of its tags. *)
From CRNG Require Import Base.Bytes Lib.Fnv Model.GrafanaNet.
From Coq Require Import Permutation.
Local Open Scope N_scope.

(* a wrapping sum of hashes does not depend on the order of its terms *)
Lemma hsum_perm (f : bytes -> N) m l l' :
  m <> 0 -> Permutation l l' ->
  fold_right (fun part acc => (f part + acc) mod m) 0 l = fold_right (fun part acc => (f part + acc) mod m) 0 l'.
Proof.
  intros Hm. induction 1 as [|x l l' _ IH|x y l|l l' l'' _ IH1 _ IH2]; cbn [fold_right].
  - reflexivity.
  - rewrite IH. reflexivity.
  - rewrite !N.add_mod_idemp_r by exact Hm. f_equal. lia.
  - congruence.
Qed.

Definition no_sep (s : bytes) : Prop := ~ In 59 s.

(* the same series, its tags listed in any order, is handled by the same worker: whatever the name and the tags contain,
   the text is cut at every ';' and the pieces of each tag stay together *)
Theorem shard_tag_order conc name tags tags' :
  Permutation tags tags' ->
  shard_of conc (join [59] (name :: tags)) = shard_of conc (join [59] (name :: tags')).
Proof.
  intros Hp. unfold shard_of, series_hash. f_equal. rewrite !split_on_join by discriminate.
  apply hsum_perm; [discriminate|]. cbn [flat_map]. apply Permutation_app_head, Permutation_flat_map, Hp.
Qed.

Lemma fnv32a_bound s : fnv32a s < 4294967296.
Proof.
  unfold fnv32a. rewrite <- fold_left_rev_right. generalize (rev s). intros l.
  induction l as [|x l IH]; cbn [fold_right]; [lia|].
  change 4294967295 with (N.ones 32). rewrite N.land_ones. apply N.mod_lt. discriminate.
Qed.

(* an untagged name: the plain fnv32a hash, as before the repair *)
Theorem shard_untagged conc name : no_sep name -> shard_of conc name = fnv32a name mod conc.
Proof.
  intros H. unfold shard_of, series_hash. rewrite split_on_nosep by exact H. cbn [fold_right].
  rewrite N.add_0_r. rewrite (N.mod_small (fnv32a name) 4294967296) by apply fnv32a_bound. reflexivity.
Qed.
