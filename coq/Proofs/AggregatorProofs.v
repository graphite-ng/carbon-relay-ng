(* C10: the bucket list as an ascending finite map; what a point and a flush do
   to it — generic in the float type F and in the per-key state P. *)
From CRNG Require Import Base.ListX Base.Bytes Model.Aggregator.

Section Buckets.
  Variable P : Type.

  Notation bucket := (bucket P).
  Notation astate := (astate P).

  Inductive bsorted : list bucket -> Prop :=
  | bs_nil : bsorted []
  | bs_cons q ks bs : (forall q' ks', In (q', ks') bs -> q < q') -> bsorted bs -> bsorted ((q, ks) :: bs).

  Definition keys_or_nil (bs : list bucket) (q : N) : list (bytes * P) :=
    match bucket_keys P bs q with Some ks => ks | None => [] end.

  (* an ascending bucket list is a finite map, bucket_keys its lookup *)
  Lemma bucket_keys_in bs q ks : bucket_keys P bs q = Some ks -> In (q, ks) bs.
  Proof.
    induction bs as [|[q0 ks0] bs IH]; simpl; [discriminate|].
    destruct (q =? q0) eqn:E; [|right; apply IH; assumption].
    apply N.eqb_eq in E as <-. intros [= <-]. left; reflexivity.
  Qed.

  Lemma in_bucket_keys bs q ks : bsorted bs -> In (q, ks) bs -> bucket_keys P bs q = Some ks.
  Proof.
    induction 1 as [|q0 ks0 bs H0 Hs IH]; simpl; [intros []|].
    intros [[= <- <-]|H]; [rewrite N.eqb_refl; reflexivity|].
    destruct (q =? q0) eqn:E; [|apply IH; exact H].
    apply N.eqb_eq in E as <-. specialize (H0 _ _ H). lia.
  Qed.

  Lemma bucket_keys_below bs q : (forall q' ks', In (q', ks') bs -> q < q') -> bucket_keys P bs q = None.
  Proof.
    intros H. destruct (bucket_keys P bs q) as [ks|] eqn:E; [|reflexivity].
    apply bucket_keys_in, H in E. lia.
  Qed.

  Lemma wb_forall (Q : bucket -> Prop) bs q f : bsorted bs ->
    (forall b, In b bs -> Q b) -> Q (q, f (keys_or_nil bs q)) -> forall b, In b (with_bucket P bs q f) -> Q b.
  Proof.
    unfold keys_or_nil. induction 1 as [|q0 ks0 bs H0 Hs IH]; simpl.
    - intros _ Hq b [<-|[]]. exact Hq.
    - destruct (q =? q0) eqn:E; [|destruct (q <? q0) eqn:L]; intros H Hq b [<-|Hb]; auto.
      + apply N.eqb_eq in E as <-. exact Hq.
      + apply N.ltb_lt in L. rewrite bucket_keys_below in Hq; [exact Hq|].
        intros q1 ks1 H1. specialize (H0 _ _ H1). lia.
  Qed.

  Lemma wb_sorted bs q f : bsorted bs -> bsorted (with_bucket P bs q f).
  Proof.
    induction 1 as [|q0 ks0 bs H0 Hs IH]; simpl.
    - constructor; [intros ? ? []|constructor].
    - destruct (q =? q0) eqn:E; [|destruct (q <? q0) eqn:L].
      + constructor; assumption.
      + apply N.ltb_lt in L. constructor; [|constructor; assumption].
        intros q' ks' [[= <- _]|H]; [exact L|]. specialize (H0 _ _ H). lia.
      + apply N.eqb_neq in E. apply N.ltb_ge in L. constructor; [|exact IH].
        intros q' ks'. apply (wb_forall (fun b => q0 < fst b)); [exact Hs | intros [q1 ks1]; apply H0 | simpl; lia].
  Qed.

  Lemma wb_keys bs q f q' : bsorted bs ->
    bucket_keys P (with_bucket P bs q f) q' = if q' =? q then Some (f (keys_or_nil bs q)) else bucket_keys P bs q'.
  Proof.
    unfold keys_or_nil. induction 1 as [|q0 ks0 bs H0 Hs IH]; simpl; [reflexivity|].
    destruct (q =? q0) eqn:E; [|destruct (q <? q0) eqn:L]; simpl.
    - apply N.eqb_eq in E as <-. destruct (q' =? q); reflexivity.
    - apply N.ltb_lt in L. rewrite (bucket_keys_below bs q); [reflexivity|].
      intros q1 ks1 H. specialize (H0 _ _ H). lia.
    - rewrite IH. destruct (q' =? q) eqn:E'; [|reflexivity].
      apply N.eqb_eq in E' as ->. rewrite E. reflexivity.
  Qed.

  Lemma split_flush_app bs c : fst (split_flush P bs c) ++ snd (split_flush P bs c) = bs.
  Proof.
    induction bs as [|[q ks] bs IH]; simpl; [reflexivity|].
    destruct (c <? q); [reflexivity|]. destruct (split_flush P bs c). simpl in *. rewrite IH. reflexivity.
  Qed.

  Theorem split_flush_spec bs c : bsorted bs ->
    split_flush P bs c = (filter (fun b => fst b <=? c) bs, filter (fun b => c <? fst b) bs).
  Proof.
    induction 1 as [|q ks bs H0 Hs IH]; simpl; [reflexivity|].
    destruct (c <? q) eqn:L.
    - (* split_flush stops here; so may the filters, everything further on being later still *)
      apply N.ltb_lt in L. rewrite (proj2 (N.leb_gt q c) L).
      rewrite filter_none, filter_all; [reflexivity| |].
      + intros [q' ks'] H. apply N.ltb_lt. specialize (H0 _ _ H). simpl. lia.
      + intros [q' ks'] H. apply N.leb_gt. specialize (H0 _ _ H). simpl. lia.
    - rewrite IH. apply N.ltb_ge, N.leb_le in L. rewrite L. reflexivity.
  Qed.

  Lemma bsorted_filter f bs : bsorted bs -> bsorted (filter f bs).
  Proof.
    induction 1 as [|q ks bs H0 Hs IH]; simpl; [constructor|].
    destruct (f (q, ks)); [|exact IH]. constructor; [|exact IH].
    intros q' ks' H. apply filter_In in H as [H _]. exact (H0 _ _ H).
  Qed.

  Fixpoint key_get (ks : list (bytes * P)) (k : bytes) : option P :=
    match ks with [] => None | (k', p) :: ks' => if beqb k k' then Some p else key_get ks' k end.

  Definition lookup (st : astate) (q : N) (k : bytes) : option P :=
    match bucket_keys P (a_buckets P st) q with Some ks => key_get ks k | None => None end.

  Lemma key_update_some ks k f ks' :
    key_update P ks k f = Some ks' ->
    forall k', key_get ks' k' = if beqb k' k then option_map f (key_get ks k) else key_get ks k'.
  Proof.
    revert ks'; induction ks as [|[k0 p0] ks IH]; simpl; intros ks' H k'; [discriminate|].
    destruct (beqb k k0) eqn:E.
    - apply beqb_eq in E as <-. injection H as <-. simpl. destruct (beqb k' k); reflexivity.
    - destruct (key_update P ks k f) as [r|]; [|discriminate]. injection H as <-. simpl.
      rewrite (IH r eq_refl). destruct (beqb k' k) eqn:E1; [|reflexivity].
      apply beqb_eq in E1 as ->. rewrite E. reflexivity.
  Qed.

  Lemma key_update_none ks k f : key_update P ks k f = None <-> key_get ks k = None.
  Proof.
    induction ks as [|[k0 p0] ks IH]; simpl; [tauto|].
    destruct (beqb k k0); [split; discriminate|].
    rewrite <- IH. destruct (key_update P ks k f); split; congruence.
  Qed.

  Lemma key_get_app ks k p k' : key_get ks k = None ->
    key_get (ks ++ [(k, p)]) k' = if beqb k' k then Some p else key_get ks k'.
  Proof.
    induction ks as [|[k0 p0] ks IH]; simpl; [reflexivity|].
    destruct (beqb k k0) eqn:E; [discriminate|]. intros H. rewrite (IH H).
    destruct (beqb k' k) eqn:E1; [|reflexivity]. apply beqb_eq in E1 as ->. rewrite E. reflexivity.
  Qed.

  Lemma key_update_keys ks k f ks' : key_update P ks k f = Some ks' -> map fst ks' = map fst ks.
  Proof.
    revert ks'; induction ks as [|[k0 p0] ks IH]; simpl; intros ks' H; [discriminate|].
    destruct (beqb k k0); [injection H as <-; reflexivity|].
    destruct (key_update P ks k f) as [r|]; [|discriminate]. injection H as <-. simpl. rewrite (IH r eq_refl). reflexivity.
  Qed.

  Lemma key_get_none_notin ks k : key_get ks k = None -> ~ In k (map fst ks).
  Proof.
    induction ks as [|[k0 p0] ks IH]; simpl; [intros _ []|].
    destruct (beqb k k0) eqn:E; [discriminate|]. apply beqb_neq in E.
    intros H [H0|H0]; [congruence | exact (IH H H0)].
  Qed.

  Lemma lookup_keys st q k : lookup st q k = key_get (keys_or_nil (a_buckets P st) q) k.
  Proof. unfold lookup, keys_or_nil. destruct (bucket_keys P (a_buckets P st) q); reflexivity. Qed.

  Lemma with_bucket_local st q f old k r : bsorted (a_buckets P st) ->
    (forall k', key_get (f (keys_or_nil (a_buckets P st) q)) k' = if beqb k' k then r else lookup st q k') ->
    let st' := {| a_buckets := with_bucket P (a_buckets P st) q f; a_too_old := old |} in
    (forall q' k', (q' <> q \/ k' <> k) -> lookup st' q' k' = lookup st q' k') /\
    lookup st' q k = r /\
    bsorted (a_buckets P st').
  Proof.
    intros Hs Hf st'.
    assert (HL : forall q' k', lookup st' q' k' =
                               if q' =? q then if beqb k' k then r else lookup st q k' else lookup st q' k').
    { intros q' k'. unfold lookup at 1. simpl. rewrite wb_keys, <- Hf by exact Hs. destruct (q' =? q); reflexivity. }
    split; [|split; [|apply wb_sorted, Hs]].
    - intros q' k' Hne. rewrite HL. destruct (q' =? q) eqn:E; [|reflexivity]. apply N.eqb_eq in E as ->.
      destruct Hne as [H|H]; [contradiction|]. apply beqb_neq in H. rewrite H. reflexivity.
    - rewrite HL, N.eqb_refl, beqb_refl. reflexivity.
  Qed.

  Variable F : Type.
  Variable pnew : F -> N -> P.
  Variable padd : P -> F -> N -> P.

  (* add_or_create, with the keys of the bucket named *)
  Lemma add_or_create_eq wait st key ts q v now :
    add_or_create F P pnew padd wait st key ts q v now =
    match key_update P (keys_or_nil (a_buckets P st) q) key (fun p => padd p v ts) with
    | Some ks' => {| a_buckets := with_bucket P (a_buckets P st) q (fun _ => ks'); a_too_old := a_too_old P st |}
    | None =>
        if usub now wait <? q
        then {| a_buckets := with_bucket P (a_buckets P st) q (fun ks => ks ++ [(key, pnew v ts)]); a_too_old := a_too_old P st |}
        else {| a_buckets := with_bucket P (a_buckets P st) q (fun ks => ks); a_too_old := a_too_old P st + 1 |}
    end.
  Proof. reflexivity. Qed.

  Theorem point_local wait st key ts q v now :
    bsorted (a_buckets P st) ->
    let st' := add_or_create F P pnew padd wait st key ts q v now in
    (forall q' k', (q' <> q \/ k' <> key) -> lookup st' q' k' = lookup st q' k') /\
    lookup st' q key =
      match lookup st q key with
      | Some p => Some (padd p v ts)
      | None => if usub now wait <? q then Some (pnew v ts) else None
      end /\
    bsorted (a_buckets P st').
  Proof.
    intros Hs. rewrite add_or_create_eq.
    (* the key is updated, appended, or (too old) left out: each time bucket q gets keys that differ at key only *)
    destruct (key_update P _ key _) as [ks'|] eqn:EU.
    - apply with_bucket_local; [exact Hs|]. intros k'. rewrite !lookup_keys, (key_update_some _ _ _ _ EU).
      destruct (key_get _ key) eqn:G; [reflexivity|]. apply (key_update_none _ _ (fun p => padd p v ts)) in G. congruence.
    - apply key_update_none in EU.
      destruct (usub now wait <? q); apply with_bucket_local; try exact Hs; intros k'; rewrite !lookup_keys, EU.
      + apply key_get_app, EU.
      + destruct (beqb k' key) eqn:B; [|reflexivity]. apply beqb_eq in B as ->. exact EU.
  Qed.

  Lemma add_or_create_sorted wait st key ts q v now :
    bsorted (a_buckets P st) -> bsorted (a_buckets P (add_or_create F P pnew padd wait st key ts q v now)).
  Proof. intros Hs. apply (point_local wait st key ts q v now Hs). Qed.
End Buckets.
