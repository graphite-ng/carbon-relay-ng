(* Disk queue: what a crash can leave behind of a queue that lives in its first segment file, and what
   NewDiskQueue makes of it: a queue that holds a contiguous run of the enqueued messages, intact and in
   order, namely the messages between the consumed and the written count of the last completed sync. *)
From CRNG Require Import Base.ListX Base.Bytes Model.DiskQueue Proofs.DQBasics Proofs.DQFields Proofs.DQFifo Proofs.DQFifoSeg.
From Coq Require Import ZifyBool.

Local Open Scope N_scope.

(* byte position of the n-th message boundary *)
Definition pos (E : list bytes) (n : nat) : nat := length (frames (firstn n E)).

Definition seg0f (f : fsys) : bytes := match seg_get (f_segs f) 0 with Some x => x | None => [] end.

(* a file system that a crash can leave behind, for the history E: the segment holds the frames of the first p
   messages; the metadata is absent, or it is the snapshot of a moment when sr messages had been consumed
   and sw written (and says so: positions and depth) *)
Definition crashable (E : list bytes) (f : fsys) (sr sw : nat) : Prop :=
  exists p, (sr <= sw)%nat /\ (sw <= p)%nat /\ (p <= length E)%nat /\
    seg0f f = frames (firstn p E) /\
    (p = 0%nat \/ seg_get (f_segs f) 0 = Some (seg0f f)) /\
    ((f_meta f = None /\ sr = 0%nat /\ sw = 0%nat) \/
     exists stale, f_meta f = Some (print_meta (Z.of_nat (sw - sr)) 0 (N.of_nat (pos E sr)) 0 (N.of_nat (pos E sw)) ++ stale)).

(* The queue of one file as the loop leaves it, in the terms of the layouts of DQFifoSeg: the file was written up to
   the messages w when the metadata was, off of them are consumed, and what was written since is junk to the reader. *)
Lemma qinv_one_file c d w off junk :
  readFileNum d = 0 -> writeFileNum d = 0 -> readPos d = N.of_nat (fpos w off) -> writePos d = N.of_nat (fsize w) ->
  depth d = Z.of_nat (length (skipn off w)) ->
  seg0 d = frames w ++ junk -> seg_get (f_segs (fs d)) 0 = Some (frames w ++ junk) \/ (w = [] /\ seg_get (f_segs (fs d)) 0 = None) ->
  N.of_nat (fsize w) <= c_max c -> (forall m, In m (skipn off w) -> small m) ->
  ahead c d (seg0 d) (skipn off w) ->
  qinv c d (skipn off w).
Proof.
  intros Hrf Hwf Hrp Hwp Hdep HC Hex Hmax Hsm A.
  pose proof (fsize_split w off) as Hlen. pose proof (skipn_fpos w off) as Hsk. unfold fsize in *.
  assert (Hfit : forall m q', skipn off w = m :: q' -> (c_max c <? readPos d + 4 + N.of_nat (length m)) = false).
  { intros m q' Eq. rewrite Eq, frames_cons, app_length, frame_length in Hlen. lia. }
  constructor; auto; try lia.
  - (* qi_files *) do 2 (split; [assumption|]). destruct (skipn off w) as [|m q']; cbn [ahead] in A; [|rewrite (Hfit m q' eq_refl) in A]; rewrite Hrf in A; tauto.
  - (* qi_wpos *) rewrite HC, app_length. lia.
  - (* qi_exists *) destruct Hex as [Hex|[-> _]]; [right; rewrite HC; exact Hex | left; exact Hwp].
  - (* qi_data *) rewrite Hrp, Hwp, !Nat2N.id, HC, !skipn_app_le by lia. rewrite skipn_all, Hsk. reflexivity.
  - (* qi_head *) destruct (skipn off w) as [|m q']; cbn [ahead] in A; [|rewrite (Hfit m q' eq_refl) in A]; rewrite Hrf in A.
    + destruct A as (A1 & A2 & _ & A3). repeat (split; [assumption|]). exact A3.
    + destruct A as (A1 & A2 & _ & A3 & A4 & A5). repeat (split; [assumption|]). exact A5.
Qed.

(* crashable, in the same terms: w = the first sw messages, sr of them consumed (pos is fpos) *)
Lemma recover c E f sr sw :
  crashable E f sr sw ->
  (forall m, In m E -> N.of_nat (length m) < 2147483648) ->
  N.of_nat (pos E (length E)) <= c_max c ->
  exists d, dq_open c f [] = Some d /\ qinv c d (firstn (sw - sr) (skipn sr E)).
Proof.
  intros (p & H1 & H2 & H3 & H4 & H5 & H6) Hsmall Hmax.
  set (w := firstn sw E). set (junk := frames (firstn (p - sw) (skipn sw E))).
  assert (Hw : length w = sw) by (apply firstn_length_le; lia).
  assert (Hq : skipn sr w = firstn (sw - sr) (skipn sr E)) by apply skipn_firstn_comm.
  assert (Hrp : fpos w sr = pos E sr) by (unfold pos, fpos, w; rewrite firstn_firstn, Nat.min_l by lia; reflexivity).
  assert (HC : seg0f f = frames w ++ junk).
  { unfold w, junk. rewrite H4, <- frames_app, <- firstn_add_skipn. do 2 f_equal. lia. }
  assert (Hfit : N.of_nat (fsize w) <= c_max c).
  { pose proof (fpos_le E sw) as L. unfold pos in Hmax. rewrite firstn_all in Hmax. unfold fpos, fsize, w in *. lia. }
  rewrite <- Hq.
  set (X := opened f [] (Z.of_nat (length (skipn sr w))) 0 (N.of_nat (fpos w sr)) 0 (N.of_nat (fsize w))).
  assert (Hopen : dq_open c f [] = loop_top c LOOP_FUEL X).
  { unfold X. rewrite Hrp, skipn_length, Hw. destruct H6 as [(Hm & -> & ->)|[stale Hm]]; [apply (dq_open_nometa c f [] Hm)|].
    apply (dq_open_meta c f [] _ _ _ _ _ stale). exact Hm. }
  assert (Hws : seg_get (f_segs f) 0 = Some (frames w ++ junk) \/ (w = [] /\ seg_get (f_segs f) 0 = None)).
  { unfold seg0f in HC. destruct (seg_get (f_segs f) 0) as [x|]; [left; rewrite HC; reflexivity | right].
    destruct H5 as [->|H5]; [|discriminate]. unfold w. replace sw with 0%nat by lia. auto. }
  assert (Hsm : forall m, In m w -> small m) by (intros m Hm; apply Hsmall, (In_firstn sw); exact Hm).
  destruct (loop_fresh c 63 X (seg0f f) (skipn sr w)) as (d & E1 & (S1 & _ & S3 & S4 & S5 & S6 & S7) & A); try reflexivity.
  { rewrite HC. apply (layout_at_head 0 0 (f_segs f) [] w sr junk); auto; cbn [headf]; try lia.
    - intros [|i] f0 H; discriminate.
    - intros H; contradiction. }
  apply (f_equal f_segs) in S1. autorewrite with dq in S1, S3, S4, S5, S6, S7.
  assert (S0 : seg0 d = seg0f f) by (unfold seg0; rewrite S1; reflexivity).
  exists d. split; [rewrite Hopen; exact E1|].
  apply (qinv_one_file c d w sr junk); rewrite ?S0, ?S1; auto.
  intros m Hm. apply Hsm, (In_skipn sr). exact Hm.
Qed.

Fixpoint fits_nr (c : cfg) (wp : N) (ops : list dop) : bool :=
  match ops with
  | [] => true
  | Put m :: r => (N.of_nat (length m) <? 2147483648) && (wp + 4 + N.of_nat (length m) <=? c_max c)
                  && fits_nr c (wp + 4 + N.of_nat (length m)) r
  | CloseReopen :: _ => false
  | _ :: r => fits_nr c wp r
  end.

Fixpoint puts (ops : list dop) : list bytes :=
  match ops with [] => [] | Put m :: r => m :: puts r | _ :: r => puts r end.
