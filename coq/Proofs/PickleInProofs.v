(* C13: what CPython pickles is turned into the equivalent plain-text lines.  The part common to all protocols (a
   connection carrying frames whose payloads decode to the items of their datapoints), and protocols 2 and 3. *)
From CRNG Require Import Base.Bytes Model.PickleVM Model.Reencode Model.PickleIn Model.PyPickle Proofs.DecimalProofs Proofs.PickleExec.
From Coq Require Import ZifyBool.

Local Open Scope N_scope.

Definition num_val (x : pynum) : pv := match x with PyInt n => VInt (Z.of_N n) | PyFloat b => VFloat b end.
Definition item_val (d : pydp) : pv := VTuple [VStr (d_name d); VTuple [num_val (d_ts d); num_val (d_val d)]].

Lemma dp_ok_inv d : dp_ok d = true ->
  N.of_nat (length (d_name d)) < 2147483648 /\ num_ok (d_ts d) = true /\ num_ok (d_val d) = true.
Proof. unfold dp_ok. intros H. apply andb_true_iff in H as [H Hv]. apply andb_true_iff in H as [Hn Ht]. repeat split; [lia | exact Ht | exact Hv]. Qed.

Section Steps.
  Variable pf : bytes -> option N.
  Notation exec := (exec pf false).

  Lemma exec_put i x st : exec (put i) (x :: st) (x :: st).
  Proof. intros rest v Y. unfold put. destruct (i <? 256); [apply yields_binput | apply yields_long_binput]; exact Y. Qed.

  Lemma exec_enc_str s i st : N.of_nat (length s) < 2147483648 -> exec (enc_str s i) st (VStr s :: st).
  Proof.
    intros Hl rest v Y. unfold enc_str. cbn [app]. rewrite <- !app_assoc.
    apply yields_binunicode; [exact Hl|]. apply exec_put, Y.
  Qed.

  Lemma exec_enc_num x st : num_ok x = true -> exec (enc_num x) st (num_val x :: st).
  Proof.
    intros Hx rest v Y. destruct x as [n|bits]; cbn [num_ok] in Hx; cbn [enc_num num_val].
    - destruct (n <? 256); [apply yields_binint1, Y|].
      destruct (n <? 65536) eqn:E; [apply yields_binint2; [lia | exact Y]|].
      apply yields_binint; [lia | exact Y].
    - apply yields_binfloat; [lia | exact Y].
  Qed.

  (* an item as protocols 2 and 3 write it, whatever the code [ct], [cv] of its two numbers *)
  Lemma exec_item23 s i ct cv vt vv st :
    N.of_nat (length s) < 2147483648 -> (forall st', exec ct st' (vt :: st')) -> (forall st', exec cv st' (vv :: st')) ->
    exec (enc_str s i ++ ct ++ cv ++ [134] ++ put (i + 1) ++ [134] ++ put (i + 2)) st (VTuple [VStr s; VTuple [vt; vv]] :: st).
  Proof.
    intros Hl Ht Hv rest v Y. rewrite <- !app_assoc. apply exec_enc_str; [exact Hl|]. apply Ht, Hv.
    apply yields_tuple2, exec_put, yields_tuple2, exec_put, Y.
  Qed.

  Lemma exec_enc_item d i st : dp_ok d = true -> exec (enc_item d i) st (item_val d :: st).
  Proof.
    intros Hd. apply dp_ok_inv in Hd as [Hn [Ht Hv]].
    apply exec_item23; [exact Hn | intros st'; apply exec_enc_num, Ht | intros st'; apply exec_enc_num, Hv].
  Qed.

  Theorem unpickle_py_dumps proto ds :
    forallb dp_ok ds = true -> unpickle pf false (py_dumps proto ds) = RDone (VList (map item_val ds)).
  Proof.
    intros Hok. apply yields_unpickle. unfold py_dumps. cbn [app]. apply yields_proto, yields_empty_list, exec_put.
    apply (exec_list_body pf false pydp enc_item enc_items dp_ok item_val);
      [intros [|d r] i; reflexivity | intros d i st; apply exec_enc_item | discriminate | exact Hok |].
    apply yields_stop.
  Qed.
End Steps.

Section Frames.
  Variable pf : bytes -> option N.
  Variable fmt6 fmt0 : N -> bytes.

  (* the payload [p] passes the checks of the read loop and decodes to a list of items that become the lines of [ds] *)
  Definition carries (p : bytes) (ds : list pydp) : Prop :=
    (exists items, unpickle pf false p = RDone (VList items) /\
                   map (handle_item fmt6 fmt0) items = map (fun d => EvLine (line_of fmt6 fmt0 d)) ds) /\
    (forall rest, check_protocol (p ++ rest) = true) /\ N.of_nat (length p) <= max_payload.

  Lemma carries_intro val p ds :
    (forall d, handle_item fmt6 fmt0 (val d) = EvLine (line_of fmt6 fmt0 d)) ->
    unpickle pf false p = RDone (VList (map val ds)) -> (forall rest, check_protocol (p ++ rest) = true) ->
    N.of_nat (length p) <= max_payload -> carries p ds.
  Proof.
    intros Hv Hu Hc Hm. split; [|split; assumption]. exists (map val ds). split; [exact Hu|].
    rewrite map_map. apply map_ext, Hv.
  Qed.

  Lemma handle_frame_carries f p ds rest :
    carries p ds ->
    handle_stream pf fmt6 fmt0 (S f) (frame_of p ++ rest)
    = let (evs, fn) := handle_stream pf fmt6 fmt0 f rest in
      (map (fun d => EvLine (line_of fmt6 fmt0 d)) ds ++ evs, fn).
  Proof.
    intros [[items [Hun Hev]] [Hcp Hmax]]. unfold frame_of. rewrite <- app_assoc. cbn [handle_stream].
    destruct (be_bytes 4 (N.of_nat (length p)) ++ p ++ rest) as [|c s] eqn:E.
    { apply (f_equal (@length N)) in E. rewrite app_length, length_be_bytes in E. discriminate E. }
    rewrite <- E, take_be_bytes. unfold max_payload in *. rewrite be_num_be_bytes_small by lia.
    replace (524288000 <? N.of_nat (length p)) with false by lia.
    rewrite Hcp. cbn [negb]. rewrite take_n_app, Hun.
    rewrite Hev. reflexivity.
  Qed.

  Variable A : Type.
  Variable P : A -> bytes.
  Variable D : A -> list pydp.
  Variable ok : A -> Prop.
  Hypothesis ok_carries : forall a, ok a -> carries (P a) (D a).

  Lemma handle_frames_carry l : forall f,
    Forall ok l -> (length l < f)%nat ->
    handle_stream pf fmt6 fmt0 f (concat (map (fun a => frame_of (P a)) l))
    = (concat (map (fun a => map (fun d => EvLine (line_of fmt6 fmt0 d)) (D a)) l), FinOk).
  Proof.
    induction l as [|a l IH]; intros f Hall Hf.
    - destruct f; [lia|]. reflexivity.
    - destruct f as [|f]; [lia|]. inversion Hall as [|? ? H1 H2]; subst. cbn [map concat length] in *.
      rewrite (handle_frame_carries f _ _ _ (ok_carries a H1)), (IH f H2) by lia. reflexivity.
  Qed.

  (* any number of frames on one connection; each frame has at least its four length bytes, so the fuel of
     handle_conn is enough *)
  Theorem handle_conn_carries l :
    Forall ok l ->
    handle_conn pf fmt6 fmt0 (concat (map (fun a => frame_of (P a)) l))
    = (concat (map (fun a => map (fun d => EvLine (line_of fmt6 fmt0 d)) (D a)) l), FinOk).
  Proof.
    intros Hall. apply handle_frames_carry; [exact Hall|]. clear Hall.
    induction l as [|a l IH]; cbn [map concat length]; [lia|].
    unfold frame_of at 1. rewrite !app_length, length_be_bytes. lia.
  Qed.
End Frames.

Section Conn.
  Variable pf : bytes -> option N.
  Variable fmt6 fmt0 : N -> bytes.

  Lemma handle_item_nums (nv : pynum -> pv) d :
    (forall f x, value_text f (nv x) = Some (num_text f x) /\ ts_text f (nv x) = Some (num_text f x)) ->
    handle_item fmt6 fmt0 (VTuple [VStr (d_name d); VTuple [nv (d_ts d); nv (d_val d)]]) = EvLine (line_of fmt6 fmt0 d).
  Proof.
    intros H. unfold handle_item, line_of. cbn [as_seq]. rewrite (proj1 (H fmt6 _)), (proj2 (H fmt0 _)). reflexivity.
  Qed.

  Lemma handle_item_val d : handle_item fmt6 fmt0 (item_val d) = EvLine (line_of fmt6 fmt0 d).
  Proof. apply handle_item_nums. intros f [n|b]; cbn; rewrite ?Z_to_dec_of_N; auto. Qed.

  (* the middle conjunct keeps the memo indices within the four bytes LONG_BINPUT has for them, so that py_dumps is what
     CPython writes; og-rek never reads the memo here and no proof uses it *)
  Definition frame_ok (proto : N) (ds : list pydp) : Prop :=
    forallb dp_ok ds = true /\ 3 * N.of_nat (length ds) + 1 < 4294967296 /\
    N.of_nat (length (py_dumps proto ds)) <= max_payload.

  Lemma frame_ok_carries proto ds : frame_ok proto ds -> carries pf fmt6 fmt0 (py_dumps proto ds) ds.
  Proof.
    intros [Hok [_ Hmax]].
    apply (carries_intro _ _ _ item_val); [exact handle_item_val | apply unpickle_py_dumps, Hok | reflexivity | exact Hmax].
  Qed.
End Conn.

(* the recorded finding, inside the model: a negative value pickled as BININT comes out as v + 2^32
   (this is pickle.dumps([('a', (1, -1))], 2), framed) *)
Example negative_binint_refuted :
  handle_conn (fun _ => None) (fun _ => []) (fun _ => [])
    [0;0;0;28; 128;2;93;113;0;88;1;0;0;0;97;113;1;75;1;74;255;255;255;255;134;113;2;134;113;3;97;46]
  = ([EvLine [97; 32; 52;50;57;52;57;54;55;50;57;53; 32; 49]], FinOk).
Proof. vm_compute. reflexivity. Qed.
