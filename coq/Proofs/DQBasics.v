(* Disk queue: framing and metadata text round trips, file-table lemmas. *)
From CRNG Require Import Base.Bytes Base.Decimal Model.DiskQueue Proofs.DecimalProofs.
From Coq Require Import ZifyBool.

Lemma land_255 x : N.land x 255 = x mod 256.
Proof. change 255 with (N.ones 8). rewrite N.land_ones. reflexivity. Qed.

Lemma be32_roundtrip n : n < 4294967296 -> un_be32 (be32 n) = n.
Proof.
  intros H. unfold be32, un_be32. rewrite !land_255, !N.shiftr_div_pow2. lia.
Qed.

Lemma frame_length m : length (frame m) = (4 + length m)%nat.
Proof. unfold frame. rewrite app_length. reflexivity. Qed.

(* reading a frame back: the length prefix and then the payload *)
Theorem frame_roundtrip m rest :
  N.of_nat (length m) < 4294967296 ->
  un_be32 (firstn 4 (frame m ++ rest)) = N.of_nat (length m) /\
  firstn (length m) (skipn 4 (frame m ++ rest)) = m /\
  skipn (length m) (skipn 4 (frame m ++ rest)) = rest.
Proof.
  intros H. unfold frame. rewrite <- app_assoc.
  change (firstn 4 (be32 (N.of_nat (length m)) ++ m ++ rest)) with (be32 (N.of_nat (length m))).
  change (skipn 4 (be32 (N.of_nat (length m)) ++ m ++ rest)) with (m ++ rest).
  split; [apply be32_roundtrip; exact H|]. split.
  - rewrite firstn_app, Nat.sub_diag, firstn_all. simpl. apply app_nil_r.
  - rewrite skipn_app, Nat.sub_diag, skipn_all. reflexivity.
Qed.

Lemma span_digits_app ds tail c :
  forallb is_digit ds = true -> is_digit c = false -> span_digits (ds ++ c :: tail) = (ds, c :: tail).
Proof.
  induction ds as [|d ds IH]; simpl; intros Hd Hc; [rewrite Hc; reflexivity|].
  apply andb_true_iff in Hd as [H1 H2]. rewrite H1, (IH H2 Hc). reflexivity.
Qed.

Lemma scan_nat_print n c tail : is_digit c = false -> scan_nat (N_to_dec n ++ c :: tail) = Some (n, c :: tail).
Proof.
  intros Hc. unfold scan_nat. rewrite (span_digits_app _ tail c (N_to_dec_digits n) Hc), dec_parse_print. reflexivity.
Qed.

Lemma digit_not_minus d : is_digit d = true -> (d =? 45) = false.
Proof. unfold is_digit. intros H. lia. Qed.

Lemma scan_int_nonneg n c tail : is_digit c = false ->
  scan_int (N_to_dec n ++ c :: tail) = Some (Z.of_N n, c :: tail).
Proof.
  intros Hc. pose proof (scan_nat_print n c tail Hc) as Hs.
  destruct (N_to_dec_head n) as [d [ds [E Hd]]]. rewrite E in *. cbn [app] in *.
  unfold scan_int. rewrite (digit_not_minus d Hd), Hs. reflexivity.
Qed.

Lemma scan_int_print z c tail : is_digit c = false -> scan_int (Z_to_dec z ++ c :: tail) = Some (z, c :: tail).
Proof.
  intros Hc. destruct z as [|p|p]; unfold Z_to_dec.
  - apply (scan_int_nonneg 0 c tail Hc).
  - change (Z.to_N (Z.pos p)) with (N.pos p). apply (scan_int_nonneg (N.pos p) c tail Hc).
  - cbn [app]. unfold scan_int. rewrite N.eqb_refl, scan_nat_print by exact Hc. reflexivity.
Qed.

Lemma expect_hit c s : expect c (c :: s) = Some s.
Proof. unfold expect. rewrite N.eqb_refl. reflexivity. Qed.

(* what persistMetaData prints, retrieveMetaData reads back, whatever stale bytes follow *)
Theorem meta_roundtrip d rf rp wf wp stale :
  parse_meta (print_meta d rf rp wf wp ++ stale) = Some (d, rf, rp, wf, wp).
Proof.
  unfold print_meta, parse_meta. repeat rewrite <- app_assoc. cbn [app].
  rewrite scan_int_print by reflexivity. rewrite expect_hit.
  rewrite scan_nat_print by reflexivity. rewrite expect_hit.
  rewrite scan_nat_print by reflexivity. rewrite expect_hit.
  rewrite scan_nat_print by reflexivity. rewrite expect_hit.
  rewrite scan_nat_print by reflexivity. rewrite expect_hit. reflexivity.
Qed.

Lemma seg_get_set l n c k : seg_get (seg_set l n c) k = if k =? n then Some c else seg_get l k.
Proof.
  induction l as [|[k0 c0] l IH]; cbn [seg_set seg_get]; [reflexivity|].
  destruct (n =? k0) eqn:E1; cbn [seg_get].
  - apply N.eqb_eq in E1. subst k0. destruct (k =? n); reflexivity.
  - destruct (n <? k0); cbn [seg_get]; [reflexivity|].
    destruct (k =? k0) eqn:E2; [replace (k =? n) with false by lia; reflexivity | exact IH].
Qed.

Lemma seg_get_del_other l n k : k <> n -> seg_get (seg_del l n) k = seg_get l k.
Proof.
  intros H. induction l as [|[k0 c0] l IH]; cbn [seg_del seg_get]; [reflexivity|].
  destruct (n =? k0) eqn:E1.
  - apply N.eqb_eq in E1. subst k0. replace (k =? n) with false by lia. reflexivity.
  - cbn [seg_get]. destruct (k =? k0); [reflexivity | exact IH].
Qed.

(* the segment table is a map: its keys increase strictly, so a file that is removed is gone *)
Fixpoint sorted_from (lo : N) (l : list (N * bytes)) : Prop :=
  match l with [] => True | (k, _) :: l' => lo <= k /\ sorted_from (k + 1) l' end.

Lemma sorted_from_weaken lo lo' l : lo' <= lo -> sorted_from lo l -> sorted_from lo' l.
Proof. destruct l as [|[k c] l]; cbn [sorted_from]; [auto|]. intros H [H1 H2]. split; [lia | exact H2]. Qed.

Lemma seg_get_below lo l n : sorted_from lo l -> n < lo -> seg_get l n = None.
Proof.
  revert lo. induction l as [|[k c] l IH]; intros lo Hs Hn; cbn [seg_get]; [reflexivity|].
  cbn [sorted_from] in Hs. destruct Hs as [H1 H2]. replace (n =? k) with false by lia. apply (IH (k + 1)); [exact H2 | lia].
Qed.

Lemma sorted_from_set lo l n c : sorted_from lo l -> sorted_from (N.min lo n) (seg_set l n c).
Proof.
  revert lo. induction l as [|[k c'] l IH]; intros lo Hs; cbn [seg_set sorted_from].
  - split; [lia | exact I].
  - cbn [sorted_from] in Hs. destruct Hs as [H1 H2].
    destruct (n =? k) eqn:E1; cbn [sorted_from].
    + split; [lia | exact H2].
    + destruct (n <? k) eqn:E2; cbn [sorted_from].
      * split; [lia|]. split; [lia | exact H2].
      * split; [lia|]. specialize (IH (k + 1) H2). apply (sorted_from_weaken (N.min (k + 1) n)); [lia | exact IH].
Qed.

Lemma sorted_from_del lo l n : sorted_from lo l -> sorted_from lo (seg_del l n).
Proof.
  revert lo. induction l as [|[k c'] l IH]; intros lo Hs; cbn [seg_del sorted_from]; [exact I|].
  cbn [sorted_from] in Hs. destruct Hs as [H1 H2].
  destruct (n =? k) eqn:E1.
  - apply (sorted_from_weaken (k + 1)); [lia | exact H2].
  - cbn [sorted_from]. split; [exact H1 | apply IH; exact H2].
Qed.

Lemma seg_get_del_same lo l n : sorted_from lo l -> seg_get (seg_del l n) n = None.
Proof.
  revert lo. induction l as [|[k c'] l IH]; intros lo Hs; cbn [seg_del seg_get]; [reflexivity|].
  cbn [sorted_from] in Hs. destruct Hs as [H1 H2].
  destruct (n =? k) eqn:E1.
  - apply N.eqb_eq in E1. subst k. apply (seg_get_below (n + 1)); [exact H2 | lia].
  - cbn [seg_get]. rewrite E1. apply (IH (k + 1)). exact H2.
Qed.

Lemma write_at_end C data : write_at C (length C) data = C ++ data.
Proof.
  unfold write_at. rewrite firstn_all, Nat.sub_diag. cbn [repeat app].
  rewrite skipn_all2 by lia. rewrite app_nil_r. reflexivity.
Qed.

Lemma write_at_zero X txt : write_at X 0 txt = txt ++ skipn (length txt) X.
Proof. reflexivity. Qed.
