(* C19, concurrency: the acceptor hist_ok (Check/C19check.v) never rejects a history of the model.
   Model of the locked section of validate.Ordered: calls run atomically in some global order sigma
   (any interleaving of the threads' program orders); each is accepted iff its timestamp exceeds every
   timestamp accepted before for its name.  For every sigma, the per-thread histories that the dispatchers
   observe pass every condition hist_ok tests. *)
From CRNG Require Import Base.Bytes Proofs.OrderedProofs Check.C19check.
From Coq Require Import ZifyBool.
Local Open Scope N_scope.

Definition gev : Type := nat * (bytes * N).            (* thread, (name, timestamp) *)

(* the calls in the order the locked sections ran, each with its index in its own thread *)
Fixpoint annot (sigma : list gev) (acc : list (bytes * N)) (cnt : nat -> nat) : list ccall :=
  match sigma with
  | [] => []
  | (g, (n, t)) :: sigma' =>
      let ok := maxts acc n <? t in
      (g, cnt g, (n, t, ok)) ::
      annot sigma' (if ok then (n, t) :: acc else acc) (fun x => if Nat.eqb x g then S (cnt g) else cnt x)
  end.

(* call i of thread g was right to reject (n, t): t is 0, or an accepted call of the name with a timestamp
   at least t does not follow it in its thread *)
Definition explained (cs : list ccall) (g i : nat) (n : bytes) (t : N) : Prop :=
  t = 0 \/ exists g' i' t', In (g', i', (n, t', true)) cs /\ t <= t' /\ (g = g' -> (i' <= i)%nat).

Lemma explained_incl cs cs' g i n t : incl cs cs' -> explained cs g i n t -> explained cs' g i n t.
Proof. intros H [->|(g' & i' & t' & Hc & Ht)]; [left; reflexivity|]. right. exists g', i', t'. auto. Qed.

(* What call_ok tests, as a property of which calls there are: accepted timestamps are positive; two accepted
   calls of one name are ordered by timestamp as by index if they are in one thread, and differ in timestamp
   unless they are the same call; every rejection is explained. *)
Definition sound (cs : list ccall) : Prop :=
  (forall g i n t, In (g, i, (n, t, true)) cs -> 0 < t) /\
  (forall g i g' i' n t t', In (g, i, (n, t, true)) cs -> In (g', i', (n, t', true)) cs ->
     (g = g' -> ((i < i')%nat <-> t < t')) /\ ((g = g' /\ i = i') \/ t <> t')) /\
  (forall g i n t, In (g, i, (n, t, false)) cs -> explained cs g i n t).

Lemma sound_ok cs : sound cs -> forallb (call_ok cs) cs = true.
Proof.
  intros (S1 & S2 & S3). apply forallb_forall. intros [[g i] [[n t] a]] Hc. unfold call_ok. destruct a.
  - apply andb_true_iff. split; [apply N.ltb_lt, (S1 _ _ _ _ Hc)|].
    apply forallb_forall. intros [[g' i'] [[n' t'] a']] Hc'. destruct a'; [|reflexivity].
    destruct (beqb n n') eqn:En; [|reflexivity]. apply beqb_eq in En. subst n'. cbn [andb].
    specialize (S2 _ _ _ _ _ _ _ Hc Hc').
    destruct (Nat.eqb g g') eqn:Eg, (Nat.eqb i i') eqn:Ei, (Nat.ltb i' i) eqn:El; cbn [andb negb]; lia.
  - apply orb_true_iff. destruct (S3 _ _ _ _ Hc) as [->|(g' & i' & t' & Hc' & Ht & Hi)]; [left; reflexivity|right].
    apply existsb_exists. exists (g', i', (n, t', true)). split; [exact Hc'|]. rewrite beqb_refl. cbn [andb]. lia.
Qed.

Lemma sound_ext cs cs' : (forall x, In x cs <-> In x cs') -> sound cs' -> sound cs.
Proof.
  intros H (S1 & S2 & S3). repeat apply conj; intros *; rewrite !H; [apply S1|apply S2|].
  intros Hc. apply (explained_incl cs'); [intros x; apply H|exact (S3 _ _ _ _ Hc)].
Qed.

Lemma sound_snoc L g i n t (a : bool) :
  sound L ->
  (if a then 0 < t /\ forall g0 i0 t0, In (g0, i0, (n, t0, true)) L -> t0 < t /\ (g0 = g -> (i0 < i)%nat)
   else explained L g i n t) ->
  sound (L ++ [(g, i, (n, t, a))]).
Proof.
  intros (S1 & S2 & S3) New. repeat apply conj.
  - intros g0 i0 n0 t0 [H|[[= <- <- <- <- ->]|[]]]%in_app_iff; [exact (S1 _ _ _ _ H)|exact (proj1 New)].
  - intros g0 i0 g' i' n0 t0 t' H H'.
    apply in_app_iff in H as [H|[E|[]]]; apply in_app_iff in H' as [H'|[E'|[]]].
    + exact (S2 _ _ _ _ _ _ _ H H').
    + injection E' as <- <- <- <- ->. destruct (proj2 New _ _ _ H), (Nat.eq_dec g0 g) as [->|]; lia.
    + injection E as <- <- <- <- ->. destruct (proj2 New _ _ _ H'), (Nat.eq_dec g g') as [->|]; lia.
    + injection E as <- <- <- <- _. injection E' as <- <- <- _. lia.
  - intros g0 i0 n0 t0 [H|[[= <- <- <- <- ->]|[]]]%in_app_iff; apply (explained_incl L); auto using incl_appl, incl_refl.
Qed.

(* the invariant along sigma: L the calls so far, acc what they accepted, cnt the threads' next indices *)
Definition inv (L : list ccall) (acc : list (bytes * N)) (cnt : nat -> nat) : Prop :=
  (forall n t, In (n, t) acc <-> exists g i, In (g, i, (n, t, true)) L) /\
  (forall g i c, In (g, i, c) L -> (i < cnt g)%nat) /\
  sound L.

Lemma inv_step L acc cnt g n t :
  inv L acc cnt ->
  let ok := maxts acc n <? t in
  inv (L ++ [(g, cnt g, (n, t, ok))]) (if ok then (n, t) :: acc else acc)
      (fun x => if Nat.eqb x g then S (cnt g) else cnt x).
Proof.
  intros (A & B & Hs). cbv zeta. split; [|split].
  - intros n0 t0. setoid_rewrite in_app_iff. cbn [In]. destruct (maxts acc n <? t); cbn [In]; rewrite A; split.
    + intros [[= <- <-]|(g0 & i0 & H)]; eauto 6.
    + intros (g0 & i0 & [H|[[= <- <- <- <-]|[]]]); eauto.
    + intros (g0 & i0 & H); eauto.
    + intros (g0 & i0 & [H|[[=]|[]]]); eauto.
  - intros g0 i0 c0 [H|[[= <- <- <-]|[]]]%in_app_iff; [|rewrite Nat.eqb_refl; lia].
    specialize (B _ _ _ H). destruct (Nat.eqb_spec g0 g); subst; lia.
  - (* the register is the largest timestamp accepted for the name, and a thread's next index is above its calls *)
    apply sound_snoc; [exact Hs|]. destruct (N.ltb_spec (maxts acc n) t) as [E|E].
    + split; [lia|]. intros g0 i0 t0 H. specialize (B _ _ _ H).
      assert (t0 <= maxts acc n) by (apply maxts_ge, A; eauto). split; [lia|intros <-; exact B].
    + destruct (N.eq_dec (maxts acc n) 0) as [Hz|Hz]; [left; lia|right].
      assert (Hatt : In (n, maxts acc n) acc) by (apply maxts_attained; lia). apply A in Hatt as (g' & i' & H').
      exists g', i', (maxts acc n). repeat apply conj; [exact H'|exact E|]. intros <-. specialize (B _ _ _ H'). lia.
Qed.

Lemma annot_sound sigma : forall L acc cnt, inv L acc cnt -> sound (L ++ annot sigma acc cnt).
Proof.
  induction sigma as [|[g [n t]] sigma IH]; intros L acc cnt H; cbn [annot].
  - rewrite app_nil_r. apply H.
  - pose proof (IH _ _ _ (inv_step _ _ _ g n t H)) as Hs. rewrite <- app_assoc in Hs. exact Hs.
Qed.

(* what the dispatchers see: one history per thread *)
Definition in_thread (g : nat) (x : ccall) : bool := Nat.eqb (fst (fst x)) g.
Definition thread_calls (L : list ccall) (g : nat) : list call := map (fun x : ccall => snd x) (filter (in_thread g) L).
Definition history (L : list ccall) (T : nat) : list (list call) := map (thread_calls L) (seq 0 T).

Lemma annot_thread sigma : forall acc cnt g,
  filter (in_thread g) (annot sigma acc cnt) =
  map (fun ic => (g, fst ic, snd ic)) (index_from (cnt g) (thread_calls (annot sigma acc cnt) g)).
Proof.
  unfold thread_calls. induction sigma as [|[g0 [n t]] sigma IH]; intros acc cnt g; cbn [annot filter]; [reflexivity|].
  change (in_thread g (g0, cnt g0, (n, t, maxts acc n <? t))) with (Nat.eqb g0 g). destruct (Nat.eqb_spec g0 g) as [->|Hg].
  - cbn [map index_from fst snd]. f_equal. rewrite IH at 1. rewrite Nat.eqb_refl. reflexivity.
  - rewrite IH at 1. apply Nat.eqb_neq in Hg. rewrite Nat.eqb_sym, Hg. reflexivity.
Qed.

Lemma annot_threads sigma : forall acc cnt, map (fun x : ccall => fst (fst x)) (annot sigma acc cnt) = map fst sigma.
Proof. induction sigma as [|[g [n t]] sigma IH]; intros acc cnt; cbn [annot map fst]; [|rewrite IH]; reflexivity. Qed.

Lemma index_from_map_seq {A} (f : nat -> A) T : forall k, index_from k (map f (seq k T)) = map (fun g => (g, f g)) (seq k T).
Proof. induction T as [|T IH]; intros k; cbn [seq map index_from]; [|rewrite IH]; reflexivity. Qed.

Lemma coords_history sigma T :
  coords (history (annot sigma [] (fun _ => O)) T) =
  flat_map (fun g => filter (in_thread g) (annot sigma [] (fun _ => O))) (seq 0 T).
Proof.
  unfold coords, history. rewrite index_from_map_seq, flat_map_concat_map, map_map, <- flat_map_concat_map.
  apply flat_map_ext. intros g. symmetry. apply (annot_thread sigma [] (fun _ => O)).
Qed.

(* For every global order of the locked sections (every interleaving of any number of
   dispatchers, any names, any timestamps), the per-thread histories pass the acceptor's test call by call. *)
Theorem hist_ok_accepts_every_interleaving (sigma : list gev) (T : nat) :
  (forall e, In e sigma -> (fst e < T)%nat) ->
  let h := history (annot sigma [] (fun _ => O)) T in
  forallb (call_ok (coords h)) (coords h) = true.
Proof.
  intros HT. cbv zeta. rewrite coords_history. apply sound_ok, (sound_ext _ (annot sigma [] (fun _ => O))).
  - intros x. rewrite in_flat_map. setoid_rewrite filter_In. setoid_rewrite in_seq.
    split; [intros (g & _ & H & _); exact H|]. intros H.
    exists (fst (fst x)). unfold in_thread. rewrite Nat.eqb_refl. repeat apply conj; auto; [lia|].
    apply (in_map (fun x : ccall => fst (fst x))) in H. rewrite annot_threads in H.
    apply in_map_iff in H as (e & <- & He). apply HT, He.
  - apply (annot_sound sigma [] [] (fun _ => O)). repeat apply conj; try (intros; contradiction).
    intros n t. split; [intros []|intros (g & i & [])].
Qed.
