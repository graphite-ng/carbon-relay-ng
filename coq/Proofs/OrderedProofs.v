(* C19: validate.Ordered is a per-name max register (under no FNV collision). *)
From CRNG Require Import Base.Bytes Lib.Fnv Model.Validate Model.Table.

Lemma omap_get_set m k v k' : omap_get (omap_set m k v) k' = if k' =? k then v else omap_get m k'.
Proof.
  induction m as [|[k0 v0] m IH]; simpl; [reflexivity|].
  destruct (N.eqb_spec k k0) as [->|Hk]; simpl.
  - destruct (k' =? k0); reflexivity.
  - destruct (N.eqb_spec k' k0) as [->|_]; [|exact IH]. rewrite (proj2 (N.eqb_neq k0 k)) by congruence. reflexivity.
Qed.

(* the accepted points so far, newest first; the register value of a name *)
Fixpoint maxts (acc : list (bytes * N)) (n : bytes) : N :=
  match acc with
  | [] => 0
  | (n', t) :: acc' => if beqb n n' then N.max t (maxts acc' n) else maxts acc' n
  end.

Lemma maxts_ge acc n t : In (n, t) acc -> t <= maxts acc n.
Proof.
  induction acc as [|[n' t'] acc IH]; cbn [maxts In]; [intros []|].
  intros [[= -> ->]|H]; [rewrite beqb_refl; lia|].
  destruct (beqb n n'); [specialize (IH H); lia | exact (IH H)].
Qed.

Lemma maxts_attained acc n : 0 < maxts acc n -> In (n, maxts acc n) acc.
Proof.
  induction acc as [|[n' t'] acc IH]; cbn [maxts In]; [lia|].
  destruct (beqb n n') eqn:E; [|right; apply IH; assumption].
  apply beqb_eq in E. subst n'. intros H.
  destruct (N.max_spec t' (maxts acc n)) as [[Hlt ->]|[Hle ->]]; [right; apply IH; lia|left; reflexivity].
Qed.

(* the specification read back in the property's words *)
Theorem maxts_accept_iff acc n t :
  (maxts acc n <? t) = true <-> (0 < t /\ forall t', In (n, t') acc -> t' < t).
Proof.
  rewrite N.ltb_lt. split.
  - intros H. split; [lia|]. intros t' Hi. apply maxts_ge in Hi. lia.
  - intros [H0 H]. destruct (N.eq_dec (maxts acc n) 0) as [->|Hz]; [exact H0|]. apply H, maxts_attained. lia.
Qed.

Section Register.
  (* the set of names in play, on which the hash is injective *)
  Variable U : bytes -> Prop.
  Hypothesis NoCollision : forall a b, U a -> U b -> fnv64a a = fnv64a b -> a = b.

  Definition Inv (m : omap) (acc : list (bytes * N)) : Prop :=
    forall n, U n -> omap_get m (fnv64a n) = maxts acc n.

  Lemma ordered_step m acc name ts :
    Inv m acc -> U name ->
    let '(m', ok) := ordered m name ts in
    ok = (maxts acc name <? ts) /\ Inv m' (if ok then (name, ts) :: acc else acc).
  Proof.
    intros Hi Hu. unfold ordered. rewrite (Hi name Hu).
    destruct (maxts acc name <? ts) eqn:E; split; try reflexivity; [|exact Hi].
    intros n Hn. rewrite omap_get_set. simpl.
    destruct (fnv64a n =? fnv64a name) eqn:EH.
    - apply N.eqb_eq in EH. apply NoCollision in EH; [|exact Hn|exact Hu]. subst n.
      rewrite beqb_refl. apply N.ltb_lt in E. lia.
    - destruct (beqb n name) eqn:EB; [apply beqb_eq in EB; subst; rewrite N.eqb_refl in EH; discriminate|].
      apply Hi; exact Hn.
  Qed.

  Fixpoint orun (m : omap) (h : list (bytes * N)) : list bool :=
    match h with
    | [] => []
    | (n, t) :: h' => let '(m', ok) := ordered m n t in ok :: orun m' h'
    end.

  (* the specification: a point is accepted iff its timestamp is positive and exceeds
     every timestamp previously accepted for its name *)
  Fixpoint spec_run (acc : list (bytes * N)) (h : list (bytes * N)) : list bool :=
    match h with
    | [] => []
    | (n, t) :: h' => let ok := maxts acc n <? t in ok :: spec_run (if ok then (n, t) :: acc else acc) h'
    end.

  Theorem max_register h : forall m acc,
    Inv m acc -> (forall n t, In (n, t) h -> U n) -> orun m h = spec_run acc h.
  Proof.
    induction h as [|[n t] h IH]; intros m acc Hi Hu; simpl; [reflexivity|].
    pose proof (ordered_step m acc n t Hi (Hu n t (or_introl eq_refl))) as Hstep.
    destruct (ordered m n t) as [m' ok]. destruct Hstep as [-> Hi']. f_equal.
    apply IH; [exact Hi'|]. intros n' t' H. eapply Hu. right; exact H.
  Qed.

  Lemma inv_init : Inv [] [].
  Proof. intros n _. reflexivity. Qed.
End Register.

(* accepted timestamps of one name are strictly increasing in acceptance order:
   in the accepted list (newest first) every earlier point of the name is smaller *)
Inductive increasing : list (bytes * N) -> Prop :=
| inc_nil : increasing []
| inc_cons n t acc : (forall t', In (n, t') acc -> t' < t) -> increasing acc -> increasing ((n, t) :: acc).

Fixpoint spec_acc (acc : list (bytes * N)) (h : list (bytes * N)) : list (bytes * N) :=
  match h with
  | [] => acc
  | (n, t) :: h' => spec_acc (if maxts acc n <? t then (n, t) :: acc else acc) h'
  end.

Theorem accepted_increasing h : forall acc, increasing acc -> increasing (spec_acc acc h).
Proof.
  induction h as [|[n t] h IH]; intros acc Hi; simpl; [exact Hi|].
  apply IH. destruct (maxts acc n <? t) eqn:E; [|exact Hi].
  constructor; [|exact Hi]. apply maxts_accept_iff in E. tauto.
Qed.
