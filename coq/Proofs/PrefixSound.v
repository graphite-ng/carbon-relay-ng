(* C03: soundness of the static prefix that matcher.regexToPrefix derives from the text of a regex.
   The text scan is compared, per regex, with a prefix computed from the syntax tree (a boolean check that the
   correspondence run evaluates); the prefix computed from the tree is proved sound for the regex engine:
   every string the anchored regex matches starts with it. *)
From CRNG Require Import Base.ListX Base.Bytes Lib.Regex Model.Matcher Proofs.MatcherProofs.
Local Open Scope nat_scope.

(* the literal every match of r must start with, and whether r is exactly that literal
   (so that what follows r in a concatenation extends it) *)
Fixpoint lp (r : re) : bytes * bool :=
  match r with
  | Eps => ([], true)
  | Bol => ([], true)
  | Chr c => ([c], true)
  | Cat a b => let (pa, fa) := lp a in
               if fa then let (pb, fb) := lp b in (pa ++ pb, fb) else (pa, false)
  | Grp _ a => lp a
  | Plus _ a => (fst (lp a), false)
  | Rep _ (S _) _ a => (fst (lp a), false)
  | _ => ([], false)
  end.

(* r begins with ^ on the left spine of its concatenations: the rest *)
Fixpoint strip_bol (r : re) : option re :=
  match r with
  | Bol => Some Eps
  | Cat a b => match strip_bol a with Some a' => Some (Cat a' b) | None => None end
  | _ => None
  end.

Definition ast_prefix (r : re) : bytes :=
  match strip_bol r with Some r' => fst (lp r') | None => [] end.

(* what lp claims of a match of r at (pos, s) that hands over to k and ends in res: s starts with the literal,
   and when r is exactly that literal k was entered right behind it *)
Definition lp_ok (pf : bytes * bool) (pos : nat) (s : bytes) (k : cont) (res : caps) : Prop :=
  has_prefix (fst pf) s = true /\
  (snd pf = true -> exists c', k (pos + length (fst pf)) (skipn (length (fst pf)) s) c' = Some res).

Lemma lp_ok_none pos s k res : lp_ok ([], false) pos s k res.
Proof. split; [reflexivity | discriminate]. Qed.

Lemma lp_ok_inexact p f pos s k k' res : lp_ok (p, f) pos s k res -> lp_ok (p, false) pos s k' res.
Proof. intros [H _]. split; [exact H | discriminate]. Qed.

Lemma lp_ok_eps pos s c k res : k pos s c = Some res -> lp_ok ([], true) pos s k res.
Proof. intros H. split; [reflexivity|]. intros _. exists c. cbn. rewrite Nat.add_0_r. exact H. Qed.

Lemma lp_sound r : forall pos s c k res, mt r pos s c k = Some res -> lp_ok (lp r) pos s k res.
Proof.
  induction r as [ |x| |neg rs|a IHa b IHb|a IHa b IHb|g a IHa|g a IHa|g a IHa|g lo hi a IHa|i a IHa| | ];
    intros pos s c k res H; cbn [lp mt] in *; try apply lp_ok_none.
  - (* Eps *) exact (lp_ok_eps _ _ _ _ _ H).
  - (* Chr *) destruct s as [|y s]; [discriminate|]. destruct (N.eqb_spec x y) as [<-|]; [|discriminate]. split.
    + cbn. rewrite N.eqb_refl. reflexivity.
    + intros _. exists c. cbn. rewrite Nat.add_1_r. exact H.
  - (* Cat: the literal of a, and behind it that of b when a is exactly its literal *)
    apply IHa in H. destruct (lp a) as [pa [|]]; [|exact (lp_ok_inexact _ _ _ _ _ _ _ H)].
    destruct H as [Ha [c' Hb]]; [reflexivity|]. apply IHb in Hb. destruct (lp b) as [pb fb].
    destruct Hb as [Hb Hk]. split; cbn [fst snd] in *; [apply has_prefix_app; assumption|].
    rewrite app_length, Nat.add_assoc, <- skipn_skipn'. exact Hk.
  - (* Plus *) apply IHa in H. destruct (lp a). exact (lp_ok_inexact _ _ _ _ _ _ _ H).
  - (* Rep *) destruct lo as [|lo]; [apply lp_ok_none|]. cbn [rep_min] in H.
    apply IHa in H. destruct (lp a). exact (lp_ok_inexact _ _ _ _ _ _ _ H).
  - (* Grp *) apply IHa in H. destruct H as [Ha Hk]. split; [exact Ha|].
    intros Hf. destruct (Hk Hf) as [c' Hc']. eexists. exact Hc'.
  - (* Bol *) destruct (Nat.eqb pos 0); [|discriminate]. exact (lp_ok_eps _ _ _ _ _ H).
Qed.

Lemma strip_sound r : forall r' pos s c k res,
  strip_bol r = Some r' -> mt r pos s c k = Some res -> pos = 0 /\ mt r' pos s c k = Some res.
Proof.
  induction r as [ |x| |neg rs|a IHa b IHb|a IHa b IHb|g a IHa|g a IHa|g a IHa|g lo hi a IHa|i a IHa| | ];
    intros r' pos s c k res Hs H; cbn [strip_bol] in Hs; try discriminate.
  - (* Cat *)
    destruct (strip_bol a) as [a'|] eqn:Ea; [|discriminate]. injection Hs as <-.
    cbn [mt] in *. exact (IHa a' pos s c _ res eq_refl H).
  - (* Bol *)
    injection Hs as <-. cbn [mt] in *. destruct (Nat.eqb_spec pos 0); [auto|discriminate].
Qed.

(* an anchored regex is only found at position 0 *)
Lemma find_from_anchored r r' : strip_bol r = Some r' -> forall fuel pos s caps,
  find_from r fuel pos s = Some caps ->
  pos = 0 /\ mt r' 0 s [] (fun p _ c => Some (set_cap 0 (0, p) c)) = Some caps.
Proof.
  intros Hs fuel. induction fuel as [|f IH]; intros pos s caps H; cbn [find_from] in H;
    destruct (mt r pos s [] _) as [c0|] eqn:E.
  1, 3: (* a match at pos, with or without fuel left *) injection H as <-; destruct (strip_sound r r' pos s [] _ c0 Hs E) as [-> Hm]; auto.
  - discriminate.
  - destruct s as [|y s']; [discriminate|]. destruct (IH (S pos) s' caps H) as [Hp _]. discriminate Hp.
Qed.

(* every string an anchored regex matches starts with the prefix read off its syntax tree *)
Theorem ast_prefix_sound r s : re_search r s = true -> has_prefix (ast_prefix r) s = true.
Proof.
  unfold re_search, re_find, ast_prefix. intros H.
  destruct (strip_bol r) as [r'|] eqn:Es; [|reflexivity].
  destruct (find_from r (length s) 0 s) as [caps|] eqn:E; [|discriminate].
  destruct (find_from_anchored r r' Es _ _ _ _ E) as [_ Hm].
  exact (proj1 (lp_sound r' 0 s [] _ caps Hm)).
Qed.

(* the boolean check the correspondence run evaluates for every generated regex: what the text scan found
   is an initial part of what the syntax tree forces *)
Definition prefix_ok (r : rx) : bool := has_prefix (regex_to_prefix (rx_src r)) (ast_prefix (rx_ast r)).
Definition opt_prefix_ok (o : option rx) : bool := match o with Some r => prefix_ok r | None => true end.

Theorem text_prefix_sound r : prefix_ok r = true ->
  forall s, rx_search r s = true -> has_prefix (regex_to_prefix (rx_src r)) s = true.
Proof.
  intros H s Hs. apply (has_prefix_trans _ (ast_prefix (rx_ast r))); [exact H|].
  apply ast_prefix_sound. exact Hs.
Qed.

Lemma opt_prefix_ok_sound o : opt_prefix_ok o = true -> opt_sound rx_search o.
Proof. destruct o as [r|]; [exact (text_prefix_sound r) | intros _; exact I]. Qed.

Local Open Scope N_scope.
Example prefix_examples :
  (* ^ab?c : the text scan drops the optional b; the tree forces "a" *)
  ast_prefix (Cat Bol (Cat (Chr 97) (Cat (Opt true (Chr 98)) (Chr 99)))) = [97]
  /\ regex_to_prefix [94;97;98;63;99] = [97]
  (* ^foo\.bar : both find foo.bar *)
  /\ ast_prefix (Cat Bol (Cat (Chr 102) (Cat (Chr 111) (Cat (Chr 111) (Cat (Chr 46) (Cat (Chr 98) (Cat (Chr 97) (Chr 114)))))))) = [102;111;111;46;98;97;114]
  /\ regex_to_prefix [94;102;111;111;92;46;98;97;114] = [102;111;111;46;98;97;114]
  (* ^foo|bar : no prefix *)
  /\ ast_prefix (Alt (Cat Bol (Cat (Chr 102) (Cat (Chr 111) (Chr 111)))) (Cat (Chr 98) (Cat (Chr 97) (Chr 114)))) = []
  /\ regex_to_prefix [94;102;111;111;124;98;97;114] = [].
Proof. vm_compute. repeat split. Qed.
