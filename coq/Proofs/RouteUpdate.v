(* C11: a route filter changed at run time takes effect on the aggregate path at once, and only for that route. *)
From CRNG Require Import Base.Bytes Model.Matcher Model.Table Proofs.TableProofs.

Lemma nth_set_nth_route rs : forall ri m j,
  nth_error (set_nth_route rs ri m) j =
  match nth_error rs j with
  | Some r => Some (if Nat.eqb j ri then {| r_kind := r_kind r; r_matcher := m; r_dests := r_dests r |} else r)
  | None => None
  end.
Proof.
  induction rs as [|r rs IH]; intros ri m j.
  - destruct ri, j; reflexivity.
  - destruct ri as [|ri], j as [|j]; cbn [set_nth_route nth_error Nat.eqb]; try reflexivity.
    + destruct (nth_error rs j); reflexivity.
    + apply IH.
Qed.

Lemma length_set_nth_route rs : forall ri m, length (set_nth_route rs ri m) = length rs.
Proof. induction rs as [|r rs IH]; intros [|ri] m; cbn [set_nth_route length]; auto. Qed.

Section WithSearch.
  Variable search : rx -> bytes -> bool.

  (* the aggregate path keeps no memory: route j gets the line iff the filter it has now accepts the name *)
  Lemma aggregate_route_iff rs buf j :
    In (j, buf) (o_routes (dispatch_aggregate search rs buf)) <->
    exists r, nth_error rs j = Some r /\ mmatch search (r_matcher r) (name_of buf) = true.
  Proof.
    destruct (dispatch_aggregate_routes search rs buf) as [-> _]. rewrite <- accepting_0, in_map_iff.
    split; [intros [k [[= ->] H]]; exact H | intros H; exists j; auto].
  Qed.

  Theorem aggregate_routing_follows_update rs ri m buf j :
    In (j, buf) (o_routes (dispatch_aggregate search (set_nth_route rs ri m) buf)) <->
    exists r, nth_error rs j = Some r /\
              mmatch search (if Nat.eqb j ri then m else r_matcher r) (name_of buf) = true.
  Proof.
    rewrite aggregate_route_iff, nth_set_nth_route.
    destruct (nth_error rs j) as [r|]; [|split; intros [x [[=] _]]].
    destruct (Nat.eqb j ri); split; intros [x [[= <-] H]]; eexists; split; try reflexivity; exact H.
  Qed.
End WithSearch.
