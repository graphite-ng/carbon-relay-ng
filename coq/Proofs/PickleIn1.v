(* C13: the protocol 1 pickler model (MARK ... TUPLE instead of TUPLE2, no PROTO header) is decoded into the
   equivalent plain-text lines. *)
From CRNG Require Import Base.Bytes Model.PickleVM Model.PickleIn Model.PyPickle Proofs.PickleExec Proofs.PickleInProofs.
Local Open Scope N_scope.

Section Steps1.
  Variable pf : bytes -> option N.
  Notation exec := (exec pf false).

  Lemma num_val_not_mark x : num_val x <> VMark.
  Proof. destruct x; discriminate. Qed.

  Lemma exec_enc_item1 d i st : dp_ok d = true -> exec (enc_item1 d i) st (item_val d :: st).
  Proof.
    intros Hd rest v Y. apply dp_ok_inv in Hd as [Hn [Ht Hv]]. unfold enc_item1. rewrite <- !app_assoc. cbn [app].
    apply yields_mark, exec_enc_str; [exact Hn|]. apply yields_mark, exec_enc_num; [exact Ht|]. apply exec_enc_num; [exact Hv|].
    apply yields_mark_tuple2; [apply num_val_not_mark | apply num_val_not_mark|].
    apply exec_put, yields_mark_tuple2; [discriminate | discriminate|]. apply exec_put, Y.
  Qed.

  Theorem unpickle_py_dumps1 ds :
    forallb dp_ok ds = true -> unpickle pf false (py_dumps1 ds) = RDone (VList (map item_val ds)).
  Proof.
    intros Hok. apply yields_unpickle. unfold py_dumps1. cbn [app]. apply yields_empty_list, exec_put.
    apply (exec_list_body pf false pydp enc_item1 enc_items1 dp_ok item_val);
      [intros [|d r] i; reflexivity | intros d i st; apply exec_enc_item1 | discriminate | exact Hok |].
    apply yields_stop.
  Qed.
End Steps1.

Section Conn1.
  Variable pf : bytes -> option N.
  Variable fmt6 fmt0 : N -> bytes.

  Definition frame_ok1 (ds : list pydp) : Prop :=
    forallb dp_ok ds = true /\ 3 * N.of_nat (length ds) + 1 < 4294967296 /\
    N.of_nat (length (py_dumps1 ds)) <= max_payload.

  Lemma frame_ok1_carries ds : frame_ok1 ds -> carries pf fmt6 fmt0 (py_dumps1 ds) ds.
  Proof.
    intros [Hok [_ Hmax]].
    apply (carries_intro _ _ _ item_val); [apply handle_item_val | apply unpickle_py_dumps1, Hok | reflexivity | exact Hmax].
  Qed.

  Lemma handle_frame1 f ds rest :
    frame_ok1 ds ->
    handle_stream pf fmt6 fmt0 (S f) (frame_of (py_dumps1 ds) ++ rest)
    = let (evs, fn) := handle_stream pf fmt6 fmt0 f rest in
      (map (fun d => EvLine (line_of fmt6 fmt0 d)) ds ++ evs, fn).
  Proof. intros H. apply handle_frame_carries, frame_ok1_carries, H. Qed.
End Conn1.
