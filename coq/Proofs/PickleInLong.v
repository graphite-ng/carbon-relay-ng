(* C13: protocols 2 and 3 with integers beyond int32 (LONG1): what CPython writes is decoded to the same numbers
   (big.Int values in og-rek) and becomes the same plain-text lines.  Only the number step is new. *)
From CRNG Require Import Base.Bytes Model.PickleVM Model.Reencode Model.PickleIn Model.PyPickle Proofs.DecimalProofs Proofs.PickleExec Proofs.PickleInProofs.
From Coq Require Import ZifyN ZifyBool.

Local Open Scope N_scope.

Definition num_valL (x : pynum) : pv :=
  match x with
  | PyInt n => if n <? 2147483648 then VInt (Z.of_N n) else VLong (Z.of_N n)
  | PyFloat b => VFloat b
  end.
Definition item_valL (d : pydp) : pv := VTuple [VStr (d_name d); VTuple [num_valL (d_ts d); num_valL (d_val d)]].

Lemma rev_le_bytes_head k : forall n, exists t, rev (le_bytes (S k) n) = ((n / 256 ^ N.of_nat k) mod 256) :: t.
Proof.
  induction k as [|k IH]; intros n.
  - exists []. cbn [le_bytes rev app N.of_nat]. rewrite N.pow_0_r, N.div_1_r. reflexivity.
  - destruct (IH (n / 256)) as [t Ht].
    change (le_bytes (S (S k)) n) with (n mod 256 :: le_bytes (S k) (n / 256)).
    cbn [rev]. rewrite Ht. exists (t ++ [n mod 256]). cbn [app]. f_equal.
    rewrite N.div_div by lia.
    replace (N.of_nat (S k)) with (N.succ (N.of_nat k)) by lia. rewrite N.pow_succ_r by lia. reflexivity.
Qed.

(* CPython's length byte, (bit_length >> 3) + 1, leaves the top bit of the last byte clear *)
Lemma long_bound n : 0 < n -> n < 128 * 256 ^ ((N.log2 n + 1) / 8).
Proof.
  intros Hn. set (b := N.log2 n + 1). set (q := b / 8).
  assert (Hb : n < 2 ^ b) by (unfold b; rewrite N.add_1_r; apply N.log2_spec; exact Hn).
  assert (Hq : b <= 8 * q + 7) by (unfold q; lia).
  assert (Hp : 2 ^ b <= 2 ^ (8 * q + 7)) by (apply N.pow_le_mono_r; lia).
  assert (He : 2 ^ (8 * q + 7) = 128 * 256 ^ q).
  { rewrite N.pow_add_r, N.pow_mul_r. change (2 ^ 8) with 256. change (2 ^ 7) with 128. lia. }
  lia.
Qed.

(* k+1 little-endian bytes whose top bit is clear are read back as the number itself *)
Lemma twos_le_bytes k n : n < 128 * 256 ^ N.of_nat k -> twos (le_bytes (S k) n) = Z.of_N n.
Proof.
  intros Hb.
  assert (Hd : n / 256 ^ N.of_nat k < 128) by (apply N.div_lt_upper_bound; lia).
  unfold twos. destruct (rev_le_bytes_head k n) as [t ->].
  rewrite (N.mod_small _ 256) by lia. replace (127 <? n / 256 ^ N.of_nat k) with false by lia.
  rewrite le_num_le_bytes_small; [reflexivity|]. rewrite Nat2N.inj_succ, N.pow_succ_r'. lia.
Qed.

Lemma twos_long n :
  0 < n -> twos (le_bytes (N.to_nat (long_len n)) n) = Z.of_N n.
Proof.
  intros Hn. unfold long_len. rewrite N.add_1_r, N2Nat.inj_succ.
  apply twos_le_bytes. rewrite N2Nat.id. apply long_bound, Hn.
Qed.

Lemma enc_numL_small x : num_ok x = true -> enc_numL x = enc_num x.
Proof. destruct x as [n|b]; cbn [num_ok enc_numL]; intros H; [rewrite H|]; reflexivity. Qed.
Lemma num_valL_small x : num_ok x = true -> num_valL x = num_val x.
Proof. destruct x as [n|b]; cbn [num_ok num_valL num_val]; intros H; [rewrite H|]; reflexivity. Qed.
Lemma num_ok_okL x : num_ok x = true -> num_okL x = true.
Proof. destruct x as [n|b]; cbn [num_ok num_okL]; intros H; [rewrite H|]; auto. Qed.

Lemma dp_okL_inv d : dp_okL d = true ->
  N.of_nat (length (d_name d)) < 2147483648 /\ num_okL (d_ts d) = true /\ num_okL (d_val d) = true.
Proof. unfold dp_okL. intros H. apply andb_true_iff in H as [H Hv]. apply andb_true_iff in H as [Hn Ht]. repeat split; [lia | exact Ht | exact Hv]. Qed.

Lemma dp_ok_okL d : dp_ok d = true -> dp_okL d = true.
Proof.
  intros H. apply dp_ok_inv in H as [Hn [Ht Hv]]. unfold dp_okL.
  rewrite (num_ok_okL _ Ht), (num_ok_okL _ Hv), !andb_true_r. apply N.ltb_lt, Hn.
Qed.

Section Steps.
  Variable pf : bytes -> option N.
  Notation exec := (exec pf false).

  Lemma exec_enc_numL x st : num_okL x = true -> exec (enc_numL x) st (num_valL x :: st).
  Proof.
    intros Hx. destruct (num_ok x) eqn:E.
    - rewrite (enc_numL_small x E), (num_valL_small x E). apply exec_enc_num, E.
    - destruct x as [n|bits]; cbn [num_ok num_okL] in *; [|congruence].
      cbn [enc_numL num_valL]. rewrite E in *. cbn [orb] in Hx. intros rest v Y. cbn [app].
      apply yields_long1; [rewrite length_le_bytes; lia | lia | rewrite twos_long by lia; exact Y].
  Qed.

  Lemma exec_enc_itemL d i st : dp_okL d = true -> exec (enc_itemL d i) st (item_valL d :: st).
  Proof.
    intros Hd. apply dp_okL_inv in Hd as [Hn [Ht Hv]].
    apply exec_item23; [exact Hn | intros st'; apply exec_enc_numL, Ht | intros st'; apply exec_enc_numL, Hv].
  Qed.

  Theorem unpickle_py_dumpsL proto ds :
    forallb dp_okL ds = true -> unpickle pf false (py_dumpsL proto ds) = RDone (VList (map item_valL ds)).
  Proof.
    intros Hok. apply yields_unpickle. unfold py_dumpsL. cbn [app]. apply yields_proto, yields_empty_list, exec_put.
    apply (exec_list_body pf false pydp enc_itemL enc_itemsL dp_okL item_valL);
      [intros [|d r] i; reflexivity | intros d i st; apply exec_enc_itemL | discriminate | exact Hok |].
    apply yields_stop.
  Qed.
End Steps.

(* the LONG1 model agrees with the int32 model wherever the latter applies *)
Lemma enc_itemL_small d i : dp_ok d = true -> enc_itemL d i = enc_item d i.
Proof.
  intros Hd. apply dp_ok_inv in Hd as [_ [Ht Hv]].
  unfold enc_itemL, enc_item. rewrite (enc_numL_small _ Ht), (enc_numL_small _ Hv). reflexivity.
Qed.
Lemma enc_itemsL_small ds : forall i, forallb dp_ok ds = true -> enc_itemsL ds i = enc_items ds i.
Proof.
  induction ds as [|d ds IH]; intros i H; [reflexivity|].
  cbn [forallb] in H. apply andb_true_iff in H as [Hd H]. cbn [enc_itemsL enc_items].
  rewrite (enc_itemL_small d i Hd), (IH _ H). reflexivity.
Qed.
Lemma py_dumpsL_small proto ds : forallb dp_ok ds = true -> py_dumpsL proto ds = py_dumps proto ds.
Proof.
  intros H. unfold py_dumpsL, py_dumps. rewrite (enc_itemsL_small ds 1 H).
  destruct ds as [|d [|d2 ds]]; try reflexivity.
  cbn [forallb] in H. apply andb_true_iff in H as [Hd _]. rewrite (enc_itemL_small d 1 Hd). reflexivity.
Qed.

Section Conn.
  Variable pf : bytes -> option N.
  Variable fmt6 fmt0 : N -> bytes.

  Lemma handle_item_valL d : handle_item fmt6 fmt0 (item_valL d) = EvLine (line_of fmt6 fmt0 d).
  Proof.
    apply handle_item_nums. intros f [n|b]; cbn [num_valL]; [destruct (n <? 2147483648)|]; cbn; rewrite ?Z_to_dec_of_N; auto.
  Qed.

  Definition frame_okL (proto : N) (ds : list pydp) : Prop :=
    forallb dp_okL ds = true /\ 3 * N.of_nat (length ds) + 1 < 4294967296 /\
    N.of_nat (length (py_dumpsL proto ds)) <= max_payload.

  Lemma frame_okL_carries proto ds : frame_okL proto ds -> carries pf fmt6 fmt0 (py_dumpsL proto ds) ds.
  Proof.
    intros [Hok [_ Hmax]].
    apply (carries_intro _ _ _ item_valL); [exact handle_item_valL | apply unpickle_py_dumpsL, Hok | reflexivity | exact Hmax].
  Qed.
End Conn.
