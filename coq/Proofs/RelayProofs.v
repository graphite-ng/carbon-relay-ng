(* C06: accounting identities of the relay loop, for every event sequence. *)
From CRNG Require Import Base.Bytes Model.Relay.
Local Open Scope N_scope.

Definition outcomes (s : rst) : N := n_enq s + n_slow s + n_spooled s + n_slowspool s + n_noconn s.

(* no counter goes down, and the lines taken in between are the lines accounted for in between *)
Definition grows (s s' : rst) : Prop :=
  n_in s <= n_in s' /\ n_unspooled s <= n_unspooled s' /\ n_enq s <= n_enq s' /\ n_slow s <= n_slow s' /\
  n_spooled s <= n_spooled s' /\ n_slowspool s <= n_slowspool s' /\ n_noconn s <= n_noconn s' /\
  n_in s' + n_unspooled s' + outcomes s = n_in s + n_unspooled s + outcomes s'.

Definition is_dead (e : rev) : bool := match e with EvDead => true | _ => false end.
Definition is_connup (e : rev) : bool := match e with EvConnUp => true | _ => false end.

(* What the events evs do to the counters on the way from s to s'.  Each outcome counter moves only in its own
   mode: the conn's two while a conn is up, the spool's two while it is down with spooling on, no-conn while it is
   down with spooling off; the backlog is read only with a conn and a spool.  The conn goes down at EvDead and
   comes up at EvConnUp only. *)
Definition counted (evs : list rev) (s s' : rst) : Prop :=
  r_spool s' = r_spool s /\ grows s s' /\
  (r_spool s = false ->
   n_unspooled s' = n_unspooled s /\ n_spooled s' = n_spooled s /\ n_slowspool s' = n_slowspool s) /\
  (r_spool s = true -> n_noconn s' = n_noconn s) /\
  (r_conn s = true -> existsb is_dead evs = false ->
   r_conn s' = true /\ n_spooled s' = n_spooled s /\ n_slowspool s' = n_slowspool s /\ n_noconn s' = n_noconn s) /\
  (r_conn s = false -> existsb is_connup evs = false ->
   r_conn s' = false /\ n_enq s' = n_enq s /\ n_slow s' = n_slow s /\ n_unspooled s' = n_unspooled s).

Lemma rstep_counted s e s' outs : rstep s e = Some (s', outs) -> counted [e] s s'.
Proof.
  unfold rstep, send, counted, grows, outcomes. destruct (r_stopped s); [discriminate|].
  destruct e as [| | | | | | |room|room|];
    [ | | | | | |
    | (* EvUnspool *) destruct (r_conn s), (r_spool s), (r_slow_last s), (r_slow_now s), room
    | (* EvIn *) destruct (r_conn s), (r_spool s), room
    | (* EvDead *) destruct (r_conn s); [|discriminate] ].
  all: intros [= <- _]; cbn; repeat split; intros; try discriminate; try assumption; lia.
Qed.

Lemma counted_cons e evs s s1 s' : counted [e] s s1 -> counted evs s1 s' -> counted (e :: evs) s s'.
Proof.
  unfold counted, grows. cbn [existsb]. rewrite !orb_false_r.
  intros (Hp1 & G1 & F1 & N1 & U1 & D1) (Hp2 & G2 & F2 & N2 & U2 & D2). rewrite Hp1 in *.
  split; [exact Hp2|]. split; [lia|]. split; [|split; [|split]].
  - intros Hp. specialize (F1 Hp). specialize (F2 Hp). lia.
  - intros Hp. specialize (N1 Hp). specialize (N2 Hp). lia.
  - intros Hc Hd. apply orb_false_iff in Hd as [He Hd].
    destruct (U1 Hc He) as (Hc1 & U1'). destruct (U2 Hc1 Hd) as (Hc2 & U2'). split; [exact Hc2|lia].
  - intros Hc Hd. apply orb_false_iff in Hd as [He Hd].
    destruct (D1 Hc He) as (Hc1 & D1'). destruct (D2 Hc1 Hd) as (Hc2 & D2'). split; [exact Hc2|lia].
Qed.

Theorem rrun_counted evs : forall s s', rrun s evs = Some s' -> counted evs s s'.
Proof.
  induction evs as [|e evs IH]; cbn [rrun]; intros s s' H.
  - injection H as <-. unfold counted, grows. repeat split; auto; lia.
  - destruct (rstep s e) as [[s1 outs]|] eqn:E; [|discriminate].
    exact (counted_cons _ _ _ _ _ (rstep_counted _ _ _ _ E) (IH _ _ H)).
Qed.

(* handing a line over is always possible and never waits for anybody *)
Theorem hand_off_total s room : r_stopped s = false ->
  exists s' o, rstep s (EvIn room) = Some (s', [o]) /\ may_wait o = false /\ n_in s' = n_in s + 1.
Proof.
  intros H. unfold rstep, send. rewrite H.
  destruct (r_conn s), (r_spool s), room; eexists _, _; repeat split.
Qed.

(* only flush and shutdown requests make the loop wait for the conn's goroutines *)
Theorem only_flush_and_shutdown_wait s e s' outs :
  rstep s e = Some (s', outs) -> existsb may_wait outs = true -> e = EvFlush \/ e = EvShutdown.
Proof.
  unfold rstep, send. destruct (r_stopped s); [discriminate|].
  destruct e as [| | | | | | |room|room|]; auto; intros H W; exfalso; revert H.
  1-4: intros [= _ <-]; discriminate W.
  - (* EvTick *) destruct (negb (r_conn s) && (r_upd s =? 0)%Z); intros [= _ <-]; discriminate W.
  - (* EvUnspool *) destruct (r_conn s && r_spool s && negb (r_slow_last s) && negb (r_slow_now s)), room;
      intros [= _ <-]; discriminate W.
  - (* EvIn *) destruct (r_conn s), (r_spool s), room; intros [= _ <-]; discriminate W.
  - (* EvDead *) destruct (r_conn s), (r_spool s); intros [= _ <-]; discriminate W.
Qed.

Theorem steady_up s room : r_conn s = true -> r_stopped s = false ->
  exists s', rstep s (EvIn room) = Some (s', [if room then OEnq else OSlow]) /\
             r_conn s' = true /\ n_in s' = n_in s + 1 /\ n_noconn s' = n_noconn s /\
             n_spooled s' = n_spooled s /\ n_slowspool s' = n_slowspool s /\
             (if room then n_enq s' = n_enq s + 1 /\ n_slow s' = n_slow s
              else n_enq s' = n_enq s /\ n_slow s' = n_slow s + 1).
Proof.
  intros Hc Hs. unfold rstep, send. rewrite Hs, Hc.
  destruct room; eexists; (split; [reflexivity|]); cbn; repeat split; auto.
Qed.

Theorem steady_down_nospool s room : r_conn s = false -> r_spool s = false -> r_stopped s = false ->
  exists s', rstep s (EvIn room) = Some (s', [ONoConn]) /\
             r_conn s' = false /\ n_in s' = n_in s + 1 /\ n_noconn s' = n_noconn s + 1 /\
             n_enq s' = n_enq s /\ n_slow s' = n_slow s.
Proof.
  intros Hc Hp Hs. unfold rstep. rewrite Hs, Hc, Hp.
  eexists; (split; [reflexivity|]); cbn; repeat split; auto.
Qed.

(* the backlog is only unspooled through a live conn that has not been slow in this or the last period *)
Theorem unspool_gate s room s' outs :
  rstep s (EvUnspool room) = Some (s', outs) ->
  r_conn s = true /\ r_spool s = true /\ r_slow_now s = false /\ r_slow_last s = false.
Proof.
  unfold rstep. destruct (r_stopped s); [discriminate|].
  destruct (r_conn s), (r_spool s), (r_slow_last s), (r_slow_now s); cbn; try discriminate. auto.
Qed.

Example relay_example :
  rrun (rinit false) [EvUpdStart; EvConnUp; EvUpdEnd; EvIn true; EvIn false; EvTick; EvDead; EvIn true; EvTick; EvTick]
  = Some {| r_conn := false; r_spool := false; r_slow_now := false; r_slow_last := false; r_upd := 0; r_stopped := false;
            n_in := 3; n_unspooled := 0; n_enq := 1; n_slow := 1; n_spooled := 0; n_slowspool := 0; n_noconn := 1 |}.
Proof. vm_compute. reflexivity. Qed.
