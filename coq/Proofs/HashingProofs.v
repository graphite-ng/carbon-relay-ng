(* C15: the ring of route/consistent_hashing.go.  Its keys are the sorted list of all replica keys of the
   destinations' nodes, and a lookup returns the best key of that set: the least key at or after the position,
   or the least key of all when there is none.  Everything else follows from that description. *)
From CRNG Require Import Base.ListX Base.Bytes Base.Order Model.Hashing.
From Coq Require Import Permutation.

Definition ekey_le : ekey -> ekey -> bool := lex_le N.leb (lex_le bleb bleb).

Lemma ekey_le_total_order : total_order ekey_le.
Proof.
  apply lex_total_order; [apply N_leb_total_order|].
  apply lex_total_order; apply bleb_total_order.
Qed.

Lemma ekey_le_pos a b : ekey_le a b = true -> fst a <= fst b.
Proof.
  unfold ekey_le, lex_le. destruct (N.leb_spec (fst a) (fst b)); [auto|discriminate].
Qed.

(* "not b < a" is "a <= b" *)
Lemma bleb_flip a b : negb (bleb b a && negb (beqb b a)) = bleb a b.
Proof.
  destruct (beqb_spec b a) as [->|Hne].
  - rewrite andb_false_r. symmetry. apply bleb_refl.
  - rewrite andb_true_r. destruct (bleb b a) eqn:Eba, (bleb a b) eqn:Eab; try reflexivity.
    + destruct Hne. apply bleb_antisym; assumption.
    + destruct (bleb_total a b); congruence.
Qed.

(* Go's Less, negated and flipped, is the lexicographic order on the key *)
Lemma entry_le_key a b : entry_le a b = ekey_le (fst a) (fst b).
Proof.
  destruct a as [[pa [ha ia]] xa], b as [[pb [hb ib]] xb].
  unfold entry_le, entry_less, ekey_le, lex_le; cbn [fst snd].
  rewrite (N.leb_antisym pa pb), (N.leb_antisym pb pa), N.eqb_compare. unfold N.ltb.
  rewrite (N.compare_antisym pb pa). destruct (pb ?= pa); cbn; try reflexivity.
  destruct (beqb_spec hb ha) as [->|Hne].
  - rewrite !bleb_refl. cbn [negb andb orb]. apply bleb_flip.
  - cbn [negb andb orb]. rewrite andb_true_r, orb_false_r.
    rewrite <- (bleb_flip ha hb), (proj2 (beqb_neq hb ha) Hne), andb_true_r. destruct (bleb hb ha); reflexivity.
Qed.

Section Pick.
  Context {A : Type} (at_p : A -> bool).

  (* sort.Search and the index modulo the length: the first element at or after the position, else the head *)
  Definition pick (l : list A) : option A :=
    match find at_p l with Some x => Some x | None => hd_error l end.

  Lemma pick_in l x : pick l = Some x -> In x l.
  Proof.
    unfold pick. destruct (find at_p l) eqn:F.
    - intros [= <-]. apply (find_some _ _ F).
    - destruct l; [discriminate|]. intros [= <-]. left; reflexivity.
  Qed.

  Lemma pick_none l : pick l = None -> l = [].
  Proof. unfold pick. destruct (find at_p l); [discriminate|]. destruct l; [reflexivity|discriminate]. Qed.
End Pick.

Lemma pick_map {A B} (f : A -> B) (at_p : B -> bool) l :
  pick at_p (map f l) = option_map f (pick (fun x => at_p (f x)) l).
Proof.
  unfold pick. rewrite find_map. destruct (find _ l); [reflexivity|]. destruct l; reflexivity.
Qed.

Definition at_or_after (p : N) (k : ekey) : bool := p <=? fst k.
Definition lookupK (p : N) (l : list ekey) : option ekey := pick (at_or_after p) l.

Definition cand (p : N) (S : list ekey) (k : ekey) : Prop :=
  In k S /\ ((exists x, In x S /\ p <= fst x) -> p <= fst k).

Definition is_best (p : N) (S : list ekey) (k : ekey) : Prop :=
  cand p S k /\ forall k', cand p S k' -> ekey_le k k' = true.

Lemma best_unique p S k k' : is_best p S k -> is_best p S k' -> k = k'.
Proof.
  intros [Hc Hmin] [Hc' Hmin']. apply (to_antisym _ ekey_le_total_order); auto.
Qed.

Lemma best_subset p S S' k :
  incl S' S -> is_best p S k -> In k S' -> is_best p S' k.
Proof.
  intros Hi [[Hin Hc] Hmin] Hk. split.
  - split; [exact Hk|]. intros [x [Hx Px]]. apply Hc. exists x. split; [apply Hi; exact Hx|exact Px].
  - intros k' [Hk' Hc']. apply Hmin. split; [apply Hi; exact Hk'|].
    intros Hex. apply Hc'. exists k. split; [exact Hk | apply Hc; exact Hex].
Qed.

Lemma best_ext p S S' k : (forall x, In x S <-> In x S') -> is_best p S k -> is_best p S' k.
Proof.
  intros HS Hb. apply (best_subset p S); [intros x; apply HS | exact Hb | apply HS, Hb].
Qed.

Lemma lookupK_best p l k :
  sorted ekey_le l -> lookupK p l = Some k -> is_best p l k.
Proof.
  intros Hs. unfold lookupK, pick. rewrite find_filter.
  pose proof (sorted_filter ekey_le (at_or_after p) l Hs) as Hf.
  assert (Hin : forall x, In x l -> p <= fst x -> In x (filter (at_or_after p) l)).
  { intros x Hx Px. apply filter_In. split; [exact Hx | apply N.leb_le, Px]. }
  destruct (filter _ l) as [|k0 after] eqn:F; cbn [hd_error].
  - (* no key at or after p: all keys are candidates, the head of the ring is the least *)
    destruct l as [|k0 l]; intros [= <-]. split.
    + split; [left; reflexivity|]. intros [x [Hx Px]]. destruct (Hin x Hx Px).
    + intros k' [Hk' _]. exact (sorted_hd_min _ ekey_le_total_order _ _ _ Hs Hk').
  - (* the keys at or after p are the candidates, k is the first of them *)
    intros [= <-]. assert (In k0 l /\ p <= fst k0) as [Hk Pk].
    { rewrite <- N.leb_le. apply (filter_In (at_or_after p)). rewrite F. left; reflexivity. }
    split; [split; [exact Hk | intros _; exact Pk]|].
    intros k' [Hk' Hc']. apply (sorted_hd_min _ ekey_le_total_order _ _ _ Hf).
    apply Hin; [exact Hk'|]. apply Hc'. exists k0. auto.
Qed.

Lemma lookupK_isort p S k : lookupK p (isort ekey_le S) = Some k <-> is_best p S k.
Proof.
  assert (forall k, lookupK p (isort ekey_le S) = Some k -> is_best p S k) as Hbest.
  { intros k0 L. apply lookupK_best in L; [|apply isort_sorted_to, ekey_le_total_order].
    apply (best_ext p (isort ekey_le S)); [|exact L].
    intros x. split; apply Permutation_in; [apply Permutation_sym|]; apply isort_perm. }
  split; [apply Hbest|]. intros Hb.
  destruct (lookupK p (isort ekey_le S)) as [k0|] eqn:L.
  - f_equal. exact (best_unique _ _ _ _ (Hbest k0 eq_refl) Hb).
  - apply pick_none in L. destruct Hb as [[Hin _] _].
    apply (Permutation_in _ (isort_perm ekey_le S)) in Hin. rewrite L in Hin. destruct Hin.
Qed.

Section Ring.
  Variable pos : bytes -> N.
  Variable replicas : nat.

  Definition node_keys (n : node) : list ekey :=
    map (fun i => (pos (replica_key n i), n)) (seq 0 replicas).
  Definition all_keys (ds : list hdest) : list ekey :=
    flat_map (fun d => node_keys (node_of_dest d)) ds.
  Definition keys_of (ds : list hdest) : list ekey := map fst (ring_of pos replicas ds).

  Lemma dest_entries_keys idx d :
    map fst (dest_entries pos replicas idx d) = node_keys (node_of_dest d).
  Proof. unfold dest_entries, node_keys. rewrite map_map. reflexivity. Qed.

  Lemma in_all_keys k ds :
    In k (all_keys ds) <-> In (snd k) (map node_of_dest ds) /\ In k (node_keys (snd k)).
  Proof.
    unfold all_keys. rewrite in_flat_map, in_map_iff. split.
    - intros [d [Hd Hk]]. assert (snd k = node_of_dest d) as ->.
      { apply in_map_iff in Hk as [i [<- _]]. reflexivity. }
      split; [exists d; auto | exact Hk].
    - intros [[d [<- Hd]] Hk]. exists d. auto.
  Qed.

  Lemma all_keys_nodes ds ds' :
    incl (map node_of_dest ds') (map node_of_dest ds) -> incl (all_keys ds') (all_keys ds).
  Proof.
    intros Hi k Hk. apply in_all_keys in Hk as [Hn Hk]. apply in_all_keys. split; [apply Hi, Hn | exact Hk].
  Qed.

  Lemma ring_state_length ds st :
    snd (fold_left (add_destination pos replicas) ds st) = (snd st + length ds)%nat.
  Proof.
    revert st; induction ds as [|d ds IH]; intros [ring n]; simpl; [lia|]. rewrite IH. simpl. lia.
  Qed.

  (* AddDestination, seen from the ring alone *)
  Lemma ring_of_snoc ds d :
    ring_of pos replicas (ds ++ [d]) =
    isort entry_le (ring_of pos replicas ds ++ dest_entries pos replicas (length ds) d).
  Proof.
    unfold ring_of. rewrite fold_left_app. cbn [fold_left].
    pose proof (ring_state_length ds ([], O)) as Hn.
    destruct (fold_left _ ds _) as [ring n]. cbn in Hn. subst n. reflexivity.
  Qed.

  Lemma keys_of_snoc ds d :
    keys_of (ds ++ [d]) = isort ekey_le (keys_of ds ++ node_keys (node_of_dest d)).
  Proof.
    unfold keys_of. rewrite ring_of_snoc, (map_isort _ _ _ entry_le_key), map_app, dest_entries_keys. reflexivity.
  Qed.

  (* sort.Sort after every AddDestination leaves the sorted list of all keys *)
  Lemma keys_of_sorted_all ds : keys_of ds = isort ekey_le (all_keys ds).
  Proof.
    induction ds as [|d ds IH] using rev_ind; [reflexivity|].
    rewrite keys_of_snoc, IH. unfold all_keys. rewrite flat_map_app. cbn [flat_map]. rewrite app_nil_r.
    apply (isort_perm_invariant _ ekey_le_total_order).
    apply Permutation_app_tail, Permutation_sym, isort_perm.
  Qed.

  Lemma ring_of_index ds e :
    In e (ring_of pos replicas ds) -> exists d, nth_error ds (snd e) = Some d /\ node_of_dest d = snd (fst e).
  Proof.
    induction ds as [|d ds IH] using rev_ind; [intros []|].
    rewrite ring_of_snoc. intros He.
    apply (Permutation_in _ (Permutation_sym (isort_perm entry_le _))) in He.
    apply in_app_or in He as [He|He].
    - destruct (IH He) as [d' [Hn Hd']]. exists d'. split; [|exact Hd'].
      rewrite nth_error_app1; [exact Hn|]. apply nth_error_Some. congruence.
    - apply in_map_iff in He as [i [<- _]]. exists d. split; [|reflexivity].
      cbn [snd]. rewrite nth_error_app2, Nat.sub_diag; [reflexivity|lia].
  Qed.

  Lemma lookup_pick p ring : lookup p ring = pick (fun e => at_or_after p (fst e)) ring.
  Proof. reflexivity. Qed.

  Lemma node_for_keys ds name :
    node_for pos replicas ds name = option_map snd (lookupK (pos name) (keys_of ds)).
  Proof.
    unfold node_for, lookupK, keys_of. rewrite pick_map, lookup_pick. destruct (pick _ _); reflexivity.
  Qed.

  (* the node of a name is the owner of the best key among all replica keys *)
  Theorem node_for_spec ds name n :
    node_for pos replicas ds name = Some n <-> exists k, is_best (pos name) (all_keys ds) k /\ snd k = n.
  Proof.
    rewrite node_for_keys, keys_of_sorted_all. split.
    - destruct (lookupK _ _) as [k|] eqn:L; [|discriminate]. intros [= <-].
      exists k. split; [apply lookupK_isort; exact L | reflexivity].
    - intros [k [Hb <-]]. apply lookupK_isort in Hb. rewrite Hb. reflexivity.
  Qed.

  Lemma node_for_in ds name n : node_for pos replicas ds name = Some n -> In n (map node_of_dest ds).
  Proof.
    intros E. apply node_for_spec in E as [k [[[Hin _] _] <-]]. apply in_all_keys in Hin. apply Hin.
  Qed.

  (* C15, minimal disruption: a name keeps its node in any subset of the nodes that still has it *)
  Theorem subset_stable ds ds' name n :
    incl (map node_of_dest ds') (map node_of_dest ds) ->
    node_for pos replicas ds name = Some n ->
    In n (map node_of_dest ds') ->
    node_for pos replicas ds' name = Some n.
  Proof.
    intros Hi E Hn. apply node_for_spec in E as [k [Hb <-]]. apply node_for_spec.
    exists k. split; [|reflexivity].
    apply (best_subset _ (all_keys ds)); [apply all_keys_nodes; exact Hi | exact Hb |].
    destruct Hb as [[Hin _] _]. apply in_all_keys in Hin. apply in_all_keys. split; [exact Hn | apply Hin].
  Qed.

  (* C15: the node depends on the name and on the *set* of nodes only *)
  Theorem node_set_only ds ds' name :
    (forall n, In n (map node_of_dest ds) <-> In n (map node_of_dest ds')) ->
    node_for pos replicas ds name = node_for pos replicas ds' name.
  Proof.
    intros HS.
    destruct (node_for pos replicas ds name) as [n|] eqn:E.
    - symmetry. apply (subset_stable ds); [intros x; apply HS | exact E | apply HS, (node_for_in _ _ _ E)].
    - destruct (node_for pos replicas ds' name) as [n'|] eqn:E'; [|reflexivity].
      rewrite <- E. apply (subset_stable ds'); [intros x; apply HS | exact E' | apply HS, (node_for_in _ _ _ E')].
  Qed.

  Lemma node_for_none ds name : node_for pos replicas ds name = None <-> all_keys ds = [].
  Proof.
    rewrite node_for_keys, keys_of_sorted_all. split.
    - intros L. destruct (lookupK _ _) eqn:P; [discriminate|]. apply pick_none in P.
      apply Permutation_nil. rewrite (isort_perm ekey_le (all_keys ds)), P. reflexivity.
    - intros ->. reflexivity.
  Qed.

  Lemma dest_of_node ds name n :
    node_for pos replicas ds name = Some n ->
    exists i d, dest_index pos replicas ds name = Some i /\ nth_error ds i = Some d /\ node_of_dest d = n.
  Proof.
    unfold dest_index, node_for. rewrite lookup_pick. destruct (pick _ _) as [e|] eqn:L; [|discriminate]. intros [= <-].
    destruct (ring_of_index ds e (pick_in _ _ _ L)) as [d [Hn Hd]]. exists (snd e), d. auto.
  Qed.

  (* C15: exactly one destination, and it is the one owning the node *)
  Theorem one_dest ds name :
    ds <> [] -> (0 < replicas)%nat ->
    exists i d, dest_index pos replicas ds name = Some i /\ nth_error ds i = Some d /\
                node_for pos replicas ds name = Some (node_of_dest d).
  Proof.
    intros Hne Hr. destruct (node_for pos replicas ds name) as [n|] eqn:E.
    - destruct (dest_of_node ds name n E) as [i [d [Hi [Hd <-]]]]. exists i, d. auto.
    - apply node_for_none in E. destruct ds as [|d ds]; [contradiction|].
      unfold all_keys, node_keys in E. destruct replicas; [lia | discriminate E].
  Qed.

  (* C15: adding a destination moves a name only onto the new destination's node *)
  Theorem add_minimal_any ds d name :
    node_for pos replicas (ds ++ [d]) name <> node_for pos replicas ds name ->
    node_for pos replicas (ds ++ [d]) name = Some (node_of_dest d).
  Proof.
    intros Hdiff. destruct (node_for pos replicas (ds ++ [d]) name) as [n|] eqn:E.
    - pose proof (node_for_in _ _ _ E) as Hn. rewrite map_app in Hn.
      apply in_app_or in Hn as [Hn|[<-|[]]]; [|reflexivity].
      (* the node was there before: the name was on it already *)
      destruct Hdiff. symmetry.
      apply (subset_stable (ds ++ [d])); [rewrite map_app; apply incl_appl, incl_refl | exact E | exact Hn].
    - (* an empty ring was empty before *)
      destruct Hdiff. symmetry. apply node_for_none. apply node_for_none in E.
      unfold all_keys in E. rewrite flat_map_app in E. apply app_eq_nil in E. apply E.
  Qed.

  Corollary add_minimal ds d name :
    ds <> [] -> (0 < replicas)%nat ->
    node_for pos replicas (ds ++ [d]) name <> node_for pos replicas ds name ->
    node_for pos replicas (ds ++ [d]) name = Some (node_of_dest d).
  Proof. intros _ _. apply add_minimal_any. Qed.

  Corollary remove_minimal ds i name n :
    node_for pos replicas ds name = Some n ->
    (forall d, nth_error ds i = Some d -> node_of_dest d <> n) ->
    node_for pos replicas (firstn i ds ++ skipn (S i) ds) name = Some n.
  Proof.
    intros E Hd. apply (subset_stable ds); [|exact E|].
    - apply incl_map. intros x Hx. apply in_app_or in Hx as [Hx|Hx]; [eapply In_firstn | eapply In_skipn]; exact Hx.
    - (* some destination other than the i-th has node n *)
      apply node_for_in, in_map_iff in E as [d [<- Hin]]. apply in_map.
      destruct (In_remove_nth ds i d Hin) as [Hm|H]; [destruct (Hd d Hm eq_refl) | exact H].
  Qed.
End Ring.
