(* C18: with copy-on-delete and Go's append, no writer step changes what a previously
   published slice header shows; with the in-place delete it does. *)
From CRNG Require Import Base.ListX Base.Bytes Model.GoSlice.
Local Open Scope nat_scope.

Section P.
  Variable A : Type.
  Notation heap := (heap A).
  Notation view := (view A).
  Notation arr := (arr A).

  Lemma nth_set_nth_same {B} (l : list B) i x d : i < length l -> nth i (set_nth l i x) d = x.
  Proof. revert i; induction l as [|y l IH]; intros [|i] H; simpl in *; try lia; [reflexivity|apply IH; lia]. Qed.

  Lemma nth_set_nth_other {B} (l : list B) i j x d : i <> j -> nth j (set_nth l i x) d = nth j l d.
  Proof. revert i j; induction l as [|y l IH]; intros [|i] [|j] H; simpl; try reflexivity; try lia. apply IH. lia. Qed.

  Lemma length_set_nth {B} (l : list B) i x : length (set_nth l i x) = length l.
  Proof. revert i; induction l as [|y l IH]; intros [|i]; simpl; auto. Qed.

  Lemma firstn_set_nth_ge {B} (l : list B) i x n : n <= i -> firstn n (set_nth l i x) = firstn n l.
  Proof.
    revert i n; induction l as [|y l IH]; intros [|i] [|n] H; simpl; try reflexivity; try lia.
    f_equal. apply IH. lia.
  Qed.

  Lemma firstn_S_set_nth {B} (l : list B) n x : n < length l -> firstn (S n) (set_nth l n x) = firstn n l ++ [x].
  Proof.
    revert n; induction l as [|y l IH]; intros [|n] H; simpl in *; try lia; [reflexivity|]. f_equal. apply IH. lia.
  Qed.

  Definition valid (h : heap) (s : header) : Prop := h_arr s < length h /\ h_len s <= length (arr h (h_arr s)).

  Definition Inv (w : wstate A) : Prop :=
    valid (w_heap A w) (w_cur A w) /\
    (forall p, In p (w_published A w) -> valid (w_heap A w) p) /\
    (forall p, In p (w_published A w) -> h_arr p = h_arr (w_cur A w) -> h_len p <= h_len (w_cur A w)).

  (* Replacing the current header s over h by s' over h' is safe for the readers: s' is valid, and every header
     that was valid and, if it shares s's array, no longer than s, stays so and shows what it showed. *)
  Definition safe (h : heap) (s : header) (h' : heap) (s' : header) : Prop :=
    valid h' s' /\
    forall p, valid h p -> (h_arr p = h_arr s -> h_len p <= h_len s) ->
      valid h' p /\ view h' p = view h p /\ (h_arr p = h_arr s' -> h_len p <= h_len s').

  Lemma fresh_safe (h : heap) s na n : n <= length na -> safe h s (h ++ [na]) {| h_arr := length h; h_len := n |}.
  Proof.
    intros Hn. unfold safe, valid, GoSlice.view, GoSlice.arr. cbn [h_arr h_len]. rewrite app_length, nth_middle.
    split; [cbn [length]; lia|]. intros p [H1 H2] _. rewrite app_nth1 by exact H1. repeat apply conj; auto; lia.
  Qed.

  Lemma inplace_safe (h : heap) s x :
    valid h s -> h_len s < length (arr h (h_arr s)) ->
    safe h s (set_nth h (h_arr s) (set_nth (arr h (h_arr s)) (h_len s) x)) {| h_arr := h_arr s; h_len := S (h_len s) |}.
  Proof.
    intros [Hs _] Hl. unfold safe, valid, GoSlice.view, GoSlice.arr in *. cbn [h_arr h_len]. rewrite length_set_nth.
    split; [rewrite nth_set_nth_same, length_set_nth by exact Hs; auto|]. intros p [H1 H2] Hp.
    destruct (Nat.eq_dec (h_arr p) (h_arr s)) as [E|E].
    - rewrite E in *. rewrite nth_set_nth_same, length_set_nth, firstn_set_nth_ge by auto. auto 6.
    - rewrite nth_set_nth_other by auto. repeat apply conj; auto.
  Qed.

  Lemma go_append_safe filler h s x :
    valid h s -> safe h s (fst (go_append A h s x filler)) (snd (go_append A h s x filler)).
  Proof.
    intros Hs. unfold go_append. destruct (Nat.ltb_spec (h_len s) (length (arr h (h_arr s)))) as [E|E].
    - apply inplace_safe; assumption.
    - apply fresh_safe. destruct Hs as [_ Hs]. unfold GoSlice.view.
      rewrite !app_length, firstn_length, repeat_length. cbn [length]. lia.
  Qed.

  Lemma del_copy_safe h s i : valid h s -> safe h s (fst (del_copy A h s i)) (snd (del_copy A h s i)).
  Proof.
    intros [_ Hs]. apply fresh_safe. unfold GoSlice.view.
    rewrite app_length, firstn_length, skipn_length, firstn_length. lia.
  Qed.

  Lemma publish_safe w h' s' :
    Inv w -> safe (w_heap A w) (w_cur A w) h' s' ->
    let w' := {| w_heap := h'; w_cur := s'; w_published := s' :: w_published A w |} in
    (forall p, In p (w_published A w) -> In p (w_published A w') /\ view h' p = view (w_heap A w) p) /\ Inv w'.
  Proof.
    intros (Hc & Hv & Hl) (Hs' & K). unfold Inv. cbn [w_heap w_cur w_published].
    split; [intros p Hp; split; [right; exact Hp|apply (K p (Hv p Hp) (Hl p Hp))]|]. split; [exact Hs'|split].
    - intros p [<-|Hp]; [exact Hs'|apply (K p (Hv p Hp) (Hl p Hp))].
    - intros p [<-|Hp]; [auto|apply (K p (Hv p Hp) (Hl p Hp))].
  Qed.

  (* one writer step, with any delete that is safe for the readers (copy-on-delete is): every published header
     stays published and still shows what it showed *)
  Theorem step_preserves_views del filler w o :
    (forall h s i, valid h s -> safe h s (fst (del h s i)) (snd (del h s i))) ->
    Inv w ->
    let w' := wstep A del filler w o in
    (forall p, In p (w_published A w) -> In p (w_published A w') /\ view (w_heap A w') p = view (w_heap A w) p) /\ Inv w'.
  Proof.
    intros Hdel HI. pose proof HI as (Hc & _). destruct o as [x|i]; cbn [wstep].
    - pose proof (go_append_safe filler _ _ x Hc) as Hsafe. destruct (go_append _ _ _ _ _) as [h' s'].
      apply publish_safe; assumption.
    - destruct (Nat.ltb i (h_len (w_cur A w))); [|auto].
      pose proof (Hdel _ _ i Hc) as Hsafe. destruct (del _ _ _) as [h' s']. apply publish_safe; assumption.
  Qed.

  Fixpoint wrun (filler : A) (w : wstate A) (ops : list (sop A)) : wstate A :=
    match ops with [] => w | o :: r => wrun filler (wstep A (del_copy A) filler w o) r end.

  Theorem snapshots_immutable filler ops : forall w,
    Inv w -> forall p, In p (w_published A w) -> view (w_heap A (wrun filler w ops)) p = view (w_heap A w) p.
  Proof.
    induction ops as [|o r IH]; intros w HI p Hp; cbn [wrun]; [reflexivity|].
    destruct (step_preserves_views (del_copy A) filler w o del_copy_safe HI) as [Hv HI'].
    destruct (Hv p Hp) as [Hp' E]. rewrite (IH _ HI' p Hp'). exact E.
  Qed.

  (* the view of the current header follows the list semantics *)
  Lemma view_append filler h s x : valid h s ->
    view (fst (go_append A h s x filler)) (snd (go_append A h s x filler)) = view h s ++ [x].
  Proof.
    intros [H1 H2]. unfold go_append, GoSlice.view, GoSlice.arr in *.
    destruct (Nat.ltb_spec (h_len s) (length (nth (h_arr s) h []))) as [E|E]; cbn [fst snd h_arr h_len].
    - rewrite nth_set_nth_same by exact H1. apply firstn_S_set_nth, E.
    - (* the fresh array begins with the old view and x *)
      assert (L : length (firstn (h_len s) (nth (h_arr s) h []) ++ [x]) = S (h_len s))
        by (rewrite app_length, firstn_length; cbn [length]; lia).
      rewrite nth_middle, app_assoc, firstn_app_le, firstn_all2 by (rewrite L; apply le_n). reflexivity.
  Qed.

  Lemma view_del_copy h s i : i < h_len s ->
    view (fst (del_copy A h s i)) (snd (del_copy A h s i)) = firstn i (view h s) ++ skipn (S i) (view h s).
  Proof.
    intros Hi. unfold del_copy. cbn [fst snd]. unfold GoSlice.view at 1, GoSlice.arr at 1. cbn [h_arr h_len].
    rewrite nth_middle. apply firstn_all2.
    unfold GoSlice.view. rewrite app_length, firstn_length, skipn_length, firstn_length. lia.
  Qed.
End P.

(* the in-place delete breaks it: [A;B;C] published, delete index 0, the old header now shows [B;C;C] *)
Example inplace_delete_refuted :
  let h0 : heap N := [[1; 2; 3]%N] in
  let s0 := {| h_arr := 0; h_len := 3 |} in
  let '(h1, s1) := del_inplace N h0 s0 0 in
  view N h0 s0 = [1; 2; 3]%N /\ view N h1 s1 = [2; 3]%N /\ view N h1 s0 = [2; 3; 3]%N.
Proof. vm_compute. auto. Qed.
