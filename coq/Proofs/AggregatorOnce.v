(* C10: no (bucket, key) is ever reported twice, for every history whose clock
   readings never fall behind an earlier tick. Generic in the per-key state. *)
From Coq Require Import FinFun.
From CRNG Require Import Base.ListX Base.Bytes Model.Aggregator Proofs.AggregatorProofs.

Section Once.
  Variable F P : Type.
  Variable pnew : F -> N -> P.
  Variable padd : P -> F -> N -> P.
  Variable pflush : P -> list (bytes * F).
  Variables interval wait : N.

  Notation bucket := (bucket P).
  Notation bsorted := (bsorted P).

  Definition pairs (bs : list bucket) : list (N * bytes) :=
    flat_map (fun b => map (fun kp => (fst b, fst kp)) (snd b)) bs.

  Definition flushed_of (st : astate P) (e : aevent F) : list bucket :=
    match e with
    | APoint _ _ _ _ _ => []
    | ATick _ t => fst (split_flush P (a_buckets P st) (cutoff_of wait t))
    end.

  Fixpoint run_pairs (st : astate P) (evs : list (aevent F)) : list (N * bytes) :=
    match evs with
    | [] => []
    | e :: r => pairs (flushed_of st e) ++ run_pairs (fst (astep F P pnew padd pflush interval wait st e)) r
    end.

  (* clock hypothesis: readings do not wrap, and a point's "now" is not before any earlier tick *)
  Fixpoint clock_ok (tmax : N) (evs : list (aevent F)) : Prop :=
    match evs with
    | [] => True
    | APoint _ _ _ _ now :: r => tmax <= now /\ wait <= now /\ now < W64 /\ clock_ok tmax r
    | ATick _ t :: r => wait <= t /\ t < W64 /\ clock_ok (N.max tmax t) r
    end.

  (* in every reachable state the bucket list is strictly ascending (the tsList invariant) *)
  Lemma step_sorted st e : bsorted (a_buckets P st) -> bsorted (a_buckets P (fst (astep F P pnew padd pflush interval wait st e))).
  Proof.
    intros Hs. destruct e as [key v ts now|t].
    - apply add_or_create_sorted, Hs.
    - simpl. unfold flush. rewrite (split_flush_spec P _ _ Hs). apply bsorted_filter, Hs.
  Qed.

  Fixpoint run_state (st : astate P) (evs : list (aevent F)) : astate P :=
    match evs with [] => st | e :: r => run_state (fst (astep F P pnew padd pflush interval wait st e)) r end.

  Lemma reachable_sorted evs : forall st, bsorted (a_buckets P st) -> bsorted (a_buckets P (run_state st evs)).
  Proof. induction evs as [|e r IH]; intros st Hs; simpl; [exact Hs|]. apply IH, step_sorted, Hs. Qed.

  Lemma usub_exact a b : b <= a -> a < W64 -> usub a b = a - b.
  Proof.
    intros Hb Ha. unfold usub. rewrite (N.mod_small b) by lia.
    replace (a + W64 - b) with (a - b + 1 * W64) by lia.
    rewrite N.mod_add by discriminate. apply N.mod_small. lia.
  Qed.

  (* what holds of a bucket still open when every tick so far was at or before tmax:
     its keys are distinct, and unless it is an empty left-over it starts after the last cutoff *)
  Definition open_ok (tmax : N) (b : bucket) : Prop :=
    NoDup (map fst (snd b)) /\ (snd b <> [] -> tmax - wait < fst b).

  (* E: the pairs reported so far *)
  Definition Inv (st : astate P) (tmax : N) (E : list (N * bytes)) : Prop :=
    bsorted (a_buckets P st) /\
    (forall b, In b (a_buckets P st) -> open_ok tmax b) /\
    (forall q k, In (q, k) E -> q <= tmax - wait) /\
    NoDup E.

  Lemma open_ok_keys_or_nil bs tmax q : (forall b, In b bs -> open_ok tmax b) -> open_ok tmax (q, keys_or_nil P bs q).
  Proof.
    intros H. unfold keys_or_nil. destruct (bucket_keys P bs q) eqn:E; [exact (H _ (bucket_keys_in P _ _ _ E))|].
    split; [constructor | intros []; reflexivity].
  Qed.

  Lemma inv_point st tmax E key v ts now :
    Inv st tmax E -> tmax <= now -> wait <= now -> now < W64 ->
    Inv (fst (astep F P pnew padd pflush interval wait st (APoint F key v ts now))) tmax E.
  Proof.
    intros [Hs [Ho HE]] Ht Hw Hlt. split; [apply step_sorted, Hs|]. split; [|exact HE].
    simpl. set (q := ts - ts mod interval).
    pose proof (open_ok_keys_or_nil _ _ q Ho) as Hq. pose proof Hq as [Hnd Hne]. simpl in Hnd, Hne.
    rewrite add_or_create_eq.
    (* bucket q is left alone, or: *)
    destruct (key_update P _ key _) as [ks'|] eqn:EU; [|destruct (usub now wait <? q) eqn:EO]; simpl;
      apply wb_forall; try assumption; split; simpl.
    - (* its key is updated: the keys are the same *)
      rewrite (key_update_keys P _ _ _ _ EU). exact Hnd.
    - intros _. apply Hne. intros E0. rewrite E0 in EU. discriminate EU.
    - (* a key not yet there is appended, q being after now - wait *)
      rewrite map_app. apply NoDup_app_singleton; [exact Hnd|].
      apply (key_get_none_notin P), (key_update_none P _ _ (fun p => padd p v ts)), EU.
    - intros _. apply N.ltb_lt in EO. rewrite usub_exact in EO by assumption. lia.
  Qed.

  Lemma pairs_in bs q k : In (q, k) (pairs bs) <-> exists ks, In (q, ks) bs /\ In k (map fst ks).
  Proof.
    unfold pairs. rewrite in_flat_map. split.
    - intros [[q0 ks] [Hb H]]. apply in_map_iff in H as [kp [[= <- <-] Hk]].
      exists ks. split; [exact Hb | apply in_map; exact Hk].
    - intros [ks [Hb H]]. exists (q, ks). split; [exact Hb|].
      apply in_map_iff in H as [kp [<- Hk]]. exact (in_map (fun kp => (q, fst kp)) _ _ Hk).
  Qed.

  Lemma pairs_nodup bs : bsorted bs -> (forall b, In b bs -> NoDup (map fst (snd b))) -> NoDup (pairs bs).
  Proof.
    induction 1 as [|q ks bs H0 Hs IH]; intros Hn; simpl; [constructor|].
    apply NoDup_app_intro.
    - rewrite <- (map_map fst (pair q)). apply Injective_map_NoDup; [|exact (Hn _ (or_introl eq_refl))].
      intros k k' [= ->]. reflexivity.
    - apply IH. intros b H. apply Hn. right; exact H.
    - intros [q' k'] H1 H2. apply in_map_iff in H1 as [kp [[= <- _] _]].
      apply pairs_in in H2 as [ks' [Hb _]]. specialize (H0 _ _ Hb). lia.
  Qed.

  Lemma inv_tick st tmax E t :
    Inv st tmax E -> wait <= t -> t < W64 ->
    Inv (fst (astep F P pnew padd pflush interval wait st (ATick F t))) (N.max tmax t)
        (E ++ pairs (flushed_of st (ATick F t))).
  Proof.
    intros [Hs [Ho [HE HD]]] Hw Hlt. split; [apply step_sorted, Hs|].
    simpl. unfold flush, cutoff_of. rewrite (split_flush_spec P _ _ Hs). rewrite usub_exact by assumption. simpl.
    split; [|split].
    - intros b H. apply filter_In in H as [H Hc]. apply N.ltb_lt in Hc.
      destruct (Ho b H) as [Hnd Hne]. split; [exact Hnd|]. intros H0. specialize (Hne H0). lia.
    - intros q k H. apply in_app_or in H as [H|H]; [specialize (HE _ _ H); lia|].
      apply pairs_in in H as [ks [Hb _]]. apply filter_In in Hb as [_ Hc]. apply N.leb_le in Hc. simpl in Hc. lia.
    - apply NoDup_app_intro; [exact HD| |].
      + apply pairs_nodup; [apply bsorted_filter; exact Hs|]. intros b H. apply filter_In in H as [H _]. apply (Ho b H).
      + (* reported before: at or before an earlier cutoff; reported now: from a non-empty open bucket, after it *)
        intros [q k] H1 H2. apply pairs_in in H2 as [ks [Hb Hk]]. apply filter_In in Hb as [Hb _].
        destruct (Ho _ Hb) as [_ Hne]. specialize (HE _ _ H1). simpl in Hne.
        assert (tmax - wait < q) by (apply Hne; intros ->; destruct Hk). lia.
  Qed.

  Theorem never_twice_gen evs : forall st tmax E,
    Inv st tmax E -> clock_ok tmax evs -> NoDup (E ++ run_pairs st evs).
  Proof.
    induction evs as [|e r IH]; intros st tmax E HI Hc; simpl.
    - rewrite app_nil_r. apply HI.
    - destruct e as [key v ts now|t]; simpl in Hc.
      + destruct Hc as [H1 [H2 [H3 Hc]]]. simpl. eapply IH; [|exact Hc].
        apply inv_point; assumption.
      + destruct Hc as [H1 [H2 Hc]]. rewrite app_assoc. eapply IH; [|exact Hc].
        apply (inv_tick st tmax E t HI H1 H2).
  Qed.

  Theorem never_twice evs : clock_ok 0 evs -> NoDup (run_pairs (a_init P) evs).
  Proof.
    intros Hc. change (NoDup ([] ++ run_pairs (a_init P) evs)). eapply never_twice_gen; [|exact Hc].
    split; [constructor|]. split; [intros ? []|]. split; [intros ? ? []|constructor].
  Qed.
End Once.
