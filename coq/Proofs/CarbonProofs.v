(* The Go ring and carbon's ConsistentHashRing pick the same node: both rings are the sorted list of all replica
   keys (carbon inserts them one by one, Go sorts after every destination), and both lookups take the first entry
   at or after the position, else the head. *)
From CRNG Require Import Base.Bytes Base.Order Model.Hashing Proofs.HashingProofs.
From Coq Require Import Permutation.

Definition opt_inst (i : bytes) : option bytes := match i with [] => None | _ => Some i end.

Lemma optle_opt i j : optle (opt_inst i) (opt_inst j) = bleb i j.
Proof. destruct i, j; reflexivity. Qed.

Lemma optle_total_order : total_order optle.
Proof.
  split.
  - intros [a|] [b|]; simpl; auto. apply bleb_total.
  - intros [a|] [b|] [c|]; simpl; auto; try discriminate. apply bleb_trans.
  - intros [a|] [b|]; simpl; auto; try discriminate. intros H1 H2. f_equal. apply bleb_antisym; assumption.
Qed.

Lemma centry_le_total_order : total_order centry_le.
Proof.
  apply lex_total_order; [apply N_leb_total_order|].
  apply lex_total_order; [apply bleb_total_order|apply optle_total_order].
Qed.

Definition cconv (k : ekey) : centry := (fst k, cnode_of (snd k)).

Lemma cconv_le a b : centry_le (cconv a) (cconv b) = ekey_le a b.
Proof.
  destruct a as [pa [ha ia]], b as [pb [hb ib]].
  unfold centry_le, ekey_le, cconv, cnode_of, lex_le; destruct ia, ib; reflexivity.
Qed.

Lemma cnode_str_of n : cnode_str (cnode_of n) = n.
Proof. destruct n as [h [|x i]]; reflexivity. Qed.

(* bisect.insort puts x behind the entries equal to it, insert in front of them: the same list *)
Lemma insort_insert x l : sorted centry_le l -> insort x l = insert centry_le x l.
Proof.
  pose proof centry_le_total_order as TO.
  induction 1 as [|y l Hy Hs IH]; simpl; [reflexivity|].
  destruct (centry_le y x) eqn:Eyx, (centry_le x y) eqn:Exy.
  - assert (x = y) as -> by exact (to_antisym _ TO _ _ Exy Eyx). rewrite IH, insert_below by exact Hy. reflexivity.
  - rewrite IH. reflexivity.
  - reflexivity.
  - destruct (to_total _ TO x y); congruence.
Qed.

Lemma fold_insort_isort {A} (f : A -> centry) l m :
  fold_left (fun r x => insort (f x) r) l (isort centry_le m) = isort centry_le (rev (map f l) ++ m).
Proof.
  revert m; induction l as [|x l IH]; intros m; simpl; [reflexivity|].
  rewrite insort_insert by (apply isort_sorted_to, centry_le_total_order).
  rewrite <- app_assoc. exact (IH (f x :: m)).
Qed.

Section Carbon.
  Variable pos : bytes -> N.
  Variable replicas : nat.

  Definition cnode_keys (n : cnode) : list centry :=
    map (fun i => (pos (replica_key (cnode_str n) i), n)) (seq 0 replicas).

  Lemma carbon_ring_isort ns m :
    fold_left (carbon_add_node pos replicas) ns (isort centry_le m) =
    isort centry_le (rev (flat_map cnode_keys ns) ++ m).
  Proof.
    revert m; induction ns as [|n ns IH]; intros m; simpl; [reflexivity|].
    unfold carbon_add_node at 2. rewrite fold_insort_isort, IH, rev_app_distr, <- app_assoc. reflexivity.
  Qed.

  Lemma cnode_keys_cconv ds :
    flat_map cnode_keys (map (fun d => cnode_of (node_of_dest d)) ds) = map cconv (all_keys pos replicas ds).
  Proof.
    induction ds as [|d ds IH]; simpl; [reflexivity|]. rewrite map_app, IH.
    unfold cnode_keys, node_keys. rewrite map_map, cnode_str_of. reflexivity.
  Qed.

  Lemma carbon_ring_eq ds :
    carbon_ring pos replicas (map (fun d => cnode_of (node_of_dest d)) ds) = map cconv (keys_of pos replicas ds).
  Proof.
    rewrite keys_of_sorted_all, (map_isort ekey_le centry_le cconv) by (symmetry; apply cconv_le).
    unfold carbon_ring. rewrite (carbon_ring_isort _ []), app_nil_r, cnode_keys_cconv.
    apply (isort_perm_invariant _ centry_le_total_order), Permutation_sym, Permutation_rev.
  Qed.

  Theorem agrees_with_carbon ds name :
    carbon_get_node pos replicas (map (fun d => cnode_of (node_of_dest d)) ds) name =
    option_map cnode_of (node_for pos replicas ds name).
  Proof.
    rewrite node_for_keys. unfold lookupK.
    transitivity (option_map snd (pick (fun e : centry => pos name <=? fst e) (map cconv (keys_of pos replicas ds)))).
    - rewrite <- carbon_ring_eq. unfold carbon_get_node, pick. destruct (find _ _); reflexivity.
    - rewrite pick_map. destruct (pick _ _); reflexivity.
  Qed.
End Carbon.
