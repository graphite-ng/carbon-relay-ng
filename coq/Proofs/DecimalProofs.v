(* Decimal text (Base/Decimal.v): what N_to_dec prints is a non-empty run of digits, and dec_parse reads it back. *)
From CRNG Require Import Base.Bytes Base.Decimal.
From Coq Require Import ZifyN ZifyBool.

Lemma is_digit_char d : d < 10 -> is_digit (48 + d) = true.
Proof. intros H. unfold is_digit. lia. Qed.

(* the digits are produced last first, in front of acc; parsing them multiplies what was read before by
   10^(their number) and adds n *)
Lemma dec_fuel_spec fuel : forall n acc, n < 10 ^ N.of_nat fuel -> (0 < fuel)%nat ->
  exists ds, dec_fuel fuel n acc = ds ++ acc /\ ds <> [] /\ forallb is_digit ds = true /\
             forall a tail, dec_parse_acc (ds ++ tail) a =
                            dec_parse_acc tail (a * 10 ^ N.of_nat (length ds) + n).
Proof.
  induction fuel as [|f IH]; intros n acc Hn Hf; [lia|].
  cbn [dec_fuel]. destruct (n / 10 =? 0) eqn:E.
  - apply N.eqb_eq in E. assert (n < 10) by lia.
    exists [48 + n mod 10]. repeat split.
    + discriminate.
    + cbn [forallb]. rewrite is_digit_char by lia. reflexivity.
    + intros a tail. cbn [app dec_parse_acc length]. rewrite is_digit_char by lia. f_equal. lia.
  - apply N.eqb_neq in E.
    destruct f as [|f'].
    { exfalso. simpl in Hn. lia. }
    assert (Hq : n / 10 < 10 ^ N.of_nat (S f')).
    { rewrite Nat2N.inj_succ, N.pow_succ_r' in Hn. rewrite Nat2N.inj_succ. lia. }
    destruct (IH (n / 10) ((48 + n mod 10) :: acc) Hq ltac:(lia)) as [ds [E1 [Hne [Hd Hp]]]].
    exists (ds ++ [48 + n mod 10]). repeat split.
    + rewrite E1, <- app_assoc. reflexivity.
    + destruct ds; discriminate.
    + rewrite forallb_app, Hd. cbn [forallb andb]. rewrite is_digit_char by lia. reflexivity.
    + intros a tail. rewrite <- app_assoc, Hp. cbn [app dec_parse_acc]. rewrite is_digit_char by lia. f_equal.
      rewrite app_length. cbn [length]. rewrite Nat.add_1_r, Nat2N.inj_succ, N.pow_succ_r'. lia.
Qed.

(* the fuel N_to_dec gives itself, one more than the number of binary digits, is enough *)
Lemma size_bound n : n < 10 ^ N.of_nat (S (N.to_nat (N.size n))).
Proof.
  rewrite Nat2N.inj_succ, N2Nat.id.
  destruct n as [|p]; [simpl; lia|].
  apply N.lt_le_trans with (2 ^ N.size (N.pos p)); [apply N.size_gt|].
  apply N.le_trans with (10 ^ N.size (N.pos p)); [apply N.pow_le_mono_l; lia|].
  apply N.pow_le_mono_r; lia.
Qed.

Lemma N_to_dec_spec n :
  N_to_dec n <> [] /\ forallb is_digit (N_to_dec n) = true /\
  forall a tail, dec_parse_acc (N_to_dec n ++ tail) a = dec_parse_acc tail (a * 10 ^ N.of_nat (length (N_to_dec n)) + n).
Proof.
  unfold N_to_dec. destruct (dec_fuel_spec (S (N.to_nat (N.size n))) n [] (size_bound n) ltac:(lia)) as [ds [-> H]].
  rewrite app_nil_r. exact H.
Qed.

Lemma N_to_dec_digits n : forallb is_digit (N_to_dec n) = true.
Proof. apply N_to_dec_spec. Qed.

Lemma N_to_dec_head n : exists d ds, N_to_dec n = d :: ds /\ is_digit d = true.
Proof.
  destruct (N_to_dec_spec n) as [Hne [Hd _]]. destruct (N_to_dec n) as [|d ds]; [contradiction|].
  exists d, ds. cbn [forallb] in Hd. apply andb_true_iff in Hd as [H _]. auto.
Qed.

Lemma dec_parse_print n : dec_parse (N_to_dec n) = Some n.
Proof.
  destruct (N_to_dec_spec n) as [Hne [_ Hp]]. specialize (Hp 0 []). rewrite app_nil_r in Hp.
  unfold dec_parse. destruct (N_to_dec n); [contradiction|]. rewrite Hp. reflexivity.
Qed.

Lemma N_to_dec_not_in c n : is_digit c = false -> ~ In c (N_to_dec n).
Proof.
  intros Hc Hin. pose proof (N_to_dec_digits n) as Hd. rewrite forallb_forall in Hd. rewrite (Hd c Hin) in Hc. discriminate.
Qed.

Lemma Z_to_dec_of_N n : Z_to_dec (Z.of_N n) = N_to_dec n.
Proof. destruct n; reflexivity. Qed.
