(* Shared by the per-property correspondence checkers: a verdict is
   0 = implementation agrees with the model on the projected observables,
   1 = it differs from the model but the property's acceptor still holds,
   2 = the property's acceptor rejects the observed behaviour
   (and, in C03check and C13check, 7 = an executable stand-in for a library disagrees with the library on the case). *)
From CRNG Require Import Base.Bytes.

Fixpoint mismatches_from {A} (f : A -> N) (i : nat) (l : list A) : list (nat * N) :=
  match l with
  | [] => []
  | x :: l' => let v := f x in
               if v =? 0 then mismatches_from f (S i) l' else (i, v) :: mismatches_from f (S i) l'
  end.
Definition mismatches {A} (f : A -> N) (l : list A) : list (nat * N) := mismatches_from f O l.

Fixpoint list_eqb {A} (eqb : A -> A -> bool) (a b : list A) : bool :=
  match a, b with
  | [], [] => true
  | x :: a', y :: b' => eqb x y && list_eqb eqb a' b'
  | _, _ => false
  end.

Lemma list_eqb_eq {A} (eqb : A -> A -> bool) :
  (forall x y, eqb x y = true <-> x = y) -> forall a b, list_eqb eqb a b = true <-> a = b.
Proof.
  intros H a; induction a as [|x a IH]; intros [|y b]; simpl; try (split; congruence).
  rewrite andb_true_iff, H, IH. split; [intros [-> ->]; reflexivity | intros [= -> ->]; auto].
Qed.

Definition option_eqb {A} (eqb : A -> A -> bool) (a b : option A) : bool :=
  match a, b with
  | Some x, Some y => eqb x y
  | None, None => true
  | _, _ => false
  end.
