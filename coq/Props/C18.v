(* C18 — runtime table changes are atomic with respect to traffic. *)
From CRNG Require Import Base.Bytes Model.GoSlice Proofs.GoSliceProofs Check.C18check.
Local Open Scope nat_scope.

(* Readers load the configuration without a lock, so atomicity reduces to: no writer step changes what a
   previously published slice header shows.  For every history of additions (Go's append: in place when the
   capacity allows) and deletions done copy-on-delete, every header ever published keeps its contents for ever:
   a dispatcher that loaded the configuration before or after a change works on exactly that complete list. *)
Theorem C18_snapshot_immutable :
  forall (A : Type) (filler : A) ops (w : wstate A),
    Inv A w -> forall p, In p (w_published A w) ->
    view A (w_heap A (wrun A filler w ops)) p = view A (w_heap A w) p.
Proof. intros A filler ops w. apply snapshots_immutable. Qed.
Print Assumptions C18_snapshot_immutable.

(* the current view follows the list semantics: append adds at the end, delete removes exactly that index *)
Theorem C18_view_append :
  forall (A : Type) (filler : A) h s x, valid A h s ->
    view A (fst (go_append A h s x filler)) (snd (go_append A h s x filler)) = view A h s ++ [x].
Proof. intros. apply view_append. assumption. Qed.
Print Assumptions C18_view_append.

Theorem C18_view_delete :
  forall (A : Type) h s i, valid A h s -> i < h_len s ->
    view A (fst (del_copy A h s i)) (snd (del_copy A h s i)) = firstn i (view A h s) ++ skipn (S i) (view A h s).
Proof. intros. apply view_del_copy. assumption. Qed.
Print Assumptions C18_view_delete.

(* deleting by index removes that entry only: every other entry keeps its relative position *)
Theorem C18_delete_exact :
  forall (A : Type) (l : list A) i j,
    nth_error (del_nth i l) j = if Nat.ltb j i then nth_error l j else nth_error l (S j).
Proof.
  intros A l. unfold del_nth. induction l as [|x l IH]; intros i j.
  - rewrite firstn_nil, skipn_nil. destruct (Nat.ltb j i), j; reflexivity.
  - destruct i, j; try reflexivity. exact (IH i j).
Qed.
Print Assumptions C18_delete_exact.

(* an index beyond the end is rejected and leaves the table unchanged; deleting an unknown route is a no-op *)
Theorem C18_bad_index_and_unknown_route :
  forall v i k,
    (length (v_black v) <= i -> admin_step v (DelBlack i) = (v, true)) /\
    (length (v_rw v) <= i -> admin_step v (DelRw i) = (v, true)) /\
    (length (v_aggs v) <= i -> admin_step v (DelAgg i) = (v, true)) /\
    ((forall ds, ~ In (k, ds) (v_routes v)) -> v_routes (fst (admin_step v (DelRoute k))) = v_routes v /\ snd (admin_step v (DelRoute k)) = false).
Proof.
  intros v i k. repeat split.
  1-3: intros H; cbn [admin_step]; apply Nat.ltb_ge in H; rewrite H; reflexivity.
  cbn [admin_step fst v_routes]. induction (v_routes v) as [|[k' ds] rs IH]; cbn [route_del]; [reflexivity|].
  destruct (beqb k k') eqn:E; [apply beqb_eq in E; subst; destruct (H ds); left; reflexivity|].
  f_equal. apply IH. intros ds' Hi. apply (H ds'). right; exact Hi.
Qed.
Print Assumptions C18_bad_index_and_unknown_route.

(* modRoute / modDest: an update one of whose options is not acceptable changes nothing and reports an error; an accepted update
   changes the filter of the named route or destination only — the lists themselves are what they were *)
Theorem C18_rejected_modification_changes_nothing :
  forall v k i upd,
    admin_step v (ModRoute k upd false) = (v, true) /\ admin_step v (ModDest k i upd false) = (v, true).
Proof.
  intros v k i upd. split; cbn [admin_step]; destruct (route_dests (v_routes v) k); try reflexivity.
  rewrite Bool.andb_false_r. reflexivity.
Qed.
Print Assumptions C18_rejected_modification_changes_nothing.

Theorem C18_modification_touches_filters_only :
  forall v k i upd valid o, o = ModRoute k upd valid \/ o = ModDest k i upd valid ->
    let v' := fst (admin_step v o) in
    v_black v' = v_black v /\ v_rw v' = v_rw v /\ v_aggs v' = v_aggs v /\ v_routes v' = v_routes v.
Proof.
  intros v k i upd valid o [-> | ->]; cbn [admin_step]; destruct (route_dests (v_routes v) k); cbv zeta; cbn [fst]; auto.
  - destruct valid; cbn [fst with_filters v_black v_rw v_aggs v_routes]; auto.
  - destruct (Nat.ltb i (length l) && valid); cbn [fst with_filters v_black v_rw v_aggs v_routes]; auto.
Qed.
Print Assumptions C18_modification_touches_filters_only.

(* the delete as it was before the repair (shift inside the shared array) is not atomic: the old header changes *)
Example C18_delete_aliasing_refuted :
  let h0 : heap N := [[1; 2; 3]%N] in
  let s0 := {| h_arr := 0; h_len := 3 |} in
  let '(h1, s1) := del_inplace N h0 s0 0 in
  view N h0 s0 = [1; 2; 3]%N /\ view N h1 s1 = [2; 3]%N /\ view N h1 s0 = [2; 3; 3]%N.
Proof. exact inplace_delete_refuted. Qed.
