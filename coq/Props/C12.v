(* C12 — input framing is independent of how the network chops the stream. *)
From CRNG Require Import Base.Bytes Model.Plain Proofs.PlainProofs.

(* For every script of reads (any cut positions, one-byte reads, empty reads, data together with
   EOF or with a timeout error) on which the scanner ends normally or with the read error, the lines
   handed on are exactly the newline-delimited lines of the concatenated stream, one optional
   trailing CR removed, a final unterminated line included — each once, in order, never a fragment. *)
Theorem C12_chunk_invariance :
  forall script ls st,
    plain script = (ls, st) -> (st = SOk \/ st = SErr) -> ls = spec_lines (data_of script).
Proof. exact plain_chunk_invariance. Qed.
Print Assumptions C12_chunk_invariance.

(* the supported limit: streams whose raw lines (and unterminated tail) stay below 64 KiB are never refused *)
Theorem C12_limits :
  forall script, lines_fit (data_of script) 0 = true -> snd (plain script) <> STooLong.
Proof. intros script H. apply (within_limit_never_too_long script [] 0 H). Qed.
Print Assumptions C12_limits.

(* a UDP datagram is one complete stream *)
Theorem C12_udp :
  forall d ls st, udp d = (ls, st) -> (st = SOk \/ st = SErr) -> ls = spec_lines d.
Proof.
  intros d ls st H Hs. rewrite (plain_chunk_invariance _ _ _ H Hs). simpl. rewrite app_nil_r. reflexivity.
Qed.
Print Assumptions C12_udp.

(* an AMQP body: the same lines, of any length (pieces of an over-long line are put back together);
   the only difference with the TCP path is a CR at the very end of an unterminated last line *)
Theorem C12_amqp :
  forall body, (forall r, snd (split_lines body []) = r -> drop_cr r = r) -> amqp_lines body = spec_lines body.
Proof. intros body H. apply amqp_matches_plain, (H _ eq_refl). Qed.
Print Assumptions C12_amqp.

Example C12_nonvacuous :
  plain [RData [102;111]; RData []; RData [111;32;49;13]; RData [10;98]; RDataErr [97;114]] = ([[102;111;111;32;49]; [98;97;114]], SErr)
  /\ spec_lines [102;111;111;32;49;13;10;98;97;114] = [[102;111;111;32;49]; [98;97;114]].
Proof. vm_compute. auto. Qed.

(* what the correspondence check executes (a linear-time twin) is the model the theorems are about *)
Theorem C12_executable_twin :
  forall script, plain_fast script = plain script.
Proof. intros. apply (plain_fast_eq script [] 0). Qed.
Print Assumptions C12_executable_twin.
