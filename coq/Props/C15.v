(* C15 — consistent hashing agrees with Carbon and moves only the keys it must. *)
From CRNG Require Import Base.Bytes Lib.Md5 Model.Hashing Proofs.HashingProofs Proofs.CarbonProofs.

(* every name goes to exactly one destination of a non-empty route, and that
   destination is the one whose (host, instance) owns the ring slot *)
Theorem C15_one_dest :
  forall (pos : bytes -> N) (replicas : nat) (ds : list hdest) (name : bytes),
    ds <> [] -> (0 < replicas)%nat ->
    exists i d, dest_index pos replicas ds name = Some i /\ nth_error ds i = Some d /\
                node_for pos replicas ds name = Some (node_of_dest d).
Proof. exact one_dest. Qed.
Print Assumptions C15_one_dest.

(* the choice is a function of the name and of the *set* of (host, instance)
   pairs: any listing order (indeed any two lists with the same node set) *)
Theorem C15_name_and_set_only :
  forall pos replicas (ds ds' : list hdest) name,
    (forall n, In n (map node_of_dest ds) <-> In n (map node_of_dest ds')) ->
    node_for pos replicas ds name = node_for pos replicas ds' name.
Proof. exact node_set_only. Qed.
Print Assumptions C15_name_and_set_only.

(* carbon's ConsistentHashRing (insort per replica, bisect_left on
   (position, None), Python-2 tuple order) picks the same node *)
Theorem C15_agrees_with_carbon :
  forall pos replicas (ds : list hdest) name,
    carbon_get_node pos replicas (map (fun d => cnode_of (node_of_dest d)) ds) name =
    option_map cnode_of (node_for pos replicas ds name).
Proof. exact agrees_with_carbon. Qed.
Print Assumptions C15_agrees_with_carbon.

(* adding a destination moves only keys that land on the new destination *)
Theorem C15_add_minimal :
  forall pos replicas (ds : list hdest) d name,
    ds <> [] -> (0 < replicas)%nat ->
    node_for pos replicas (ds ++ [d]) name <> node_for pos replicas ds name ->
    node_for pos replicas (ds ++ [d]) name = Some (node_of_dest d).
Proof. exact add_minimal. Qed.
Print Assumptions C15_add_minimal.

(* removing destination i moves only the keys it owned *)
Theorem C15_remove_minimal :
  forall pos replicas (ds : list hdest) i name n,
    node_for pos replicas ds name = Some n ->
    (forall d, nth_error ds i = Some d -> node_of_dest d <> n) ->
    node_for pos replicas (firstn i ds ++ skipn (S i) ds) name = Some n.
Proof. exact remove_minimal. Qed.
Print Assumptions C15_remove_minimal.

(* non-vacuity: a concrete three-destination ring under the real MD5 *)
Example C15_nonvacuous :
  let ds := [([49;48;46;48;46;48;46;49;58;50;48;48;51], [97]);
             ([49;48;46;48;46;48;46;50;58;50;48;48;51], []);
             ([49;48;46;48;46;48;46;51;58;50;48;48;51], [98])] in
  ds <> [] /\ dest_index md5_pos 100 ds [102;111;111] = Some 2%nat /\
  dest_index md5_pos 100 ds [102;111;112] = Some 1%nat /\
  dest_index md5_pos 100 (ds ++ [([120], [])]) [102;111;112] = Some 3%nat.
Proof.
  intros ds. split; [discriminate|].
  (* the three lookups share one ring, that of ds, extended once by the fourth destination: coqchk evaluates
     lazily, and every MD5 is dear to it *)
  unfold dest_index. rewrite ring_of_snoc.
  set (ring := ring_of md5_pos 100 ds). revert ring.
  vm_compute. auto.
Qed.
