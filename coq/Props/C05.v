(* C05 — a healthy carbon connection carries the lines in order, once, unbroken. *)
From CRNG Require Import Base.Bytes Model.BufWriter Model.DiskQueue Proofs.BufWriterProofs.
Local Open Scope nat_scope.

(* The buffered writer, for every capacity, every write size and every behaviour of the underlying
   writer: the bytes a Write reports as taken are appended to (accepted ++ buffered), nothing else
   changes, the buffer never exceeds its capacity, and no error means everything was taken. *)
Theorem C05_writer_stream :
  forall fuel b p nn b' nn' e,
    length (bw_buf b) <= bw_cap b ->
    bw_write fuel b p nn = Some (b', nn', e) ->
    nn <= nn' /\ nn' - nn <= length p /\
    stream b' = stream b ++ firstn (nn' - nn) p /\
    bw_cap b' = bw_cap b /\ length (bw_buf b') <= bw_cap b' /\
    (e = false -> nn' - nn = length p /\ bw_err b' = false) /\ (e = true -> bw_err b' = true).
Proof.
  intros fuel b p nn b' nn' e Hcap H. destruct (write_spec _ _ _ _ _ _ _ H) as (Hn & (Hk & Hs & Hc & Hl & _) & <- & Hf).
  specialize (Hl Hcap). tauto.
Qed.
Print Assumptions C05_writer_stream.

(* Write's loop terminates whenever the underlying writer honours the io.Writer contract
   (fewer bytes than offered only together with an error); two rounds are enough *)
Theorem C05_write_terminates :
  forall fuel b p nn, contract (bw_script b) -> bw_write (S (S fuel)) b p nn <> None.
Proof. exact write_terminates. Qed.
Print Assumptions C05_write_terminates.

(* a healthy connection, any interleaving of lines and flushes, any buffer size and line lengths:
   what the endpoint has received plus what is still buffered is exactly the lines in hand-off
   order, each once, each followed by one newline; a flush leaves nothing behind *)
Theorem C05_conn_stream :
  forall ops b b',
    healthy (bw_script b) -> bw_err b = false -> length (bw_buf b) <= bw_cap b ->
    conn_run b ops = Some b' -> stream b' = stream b ++ lines_of ops.
Proof. exact conn_stream. Qed.
Print Assumptions C05_conn_stream.

Theorem C05_flush_empties :
  forall b b' e, healthy (bw_script b) -> bw_err b = false -> bw_flush b = (b', e) -> bw_buf b' = [] /\ bw_out b' = stream b.
Proof. exact flush_empties. Qed.
Print Assumptions C05_flush_empties.

(* the bounded hand-off queue: for every interleaving of offers and takes, what was taken plus what is
   queued is a subsequence (same order) of what was offered, and the difference is exactly the drop counter *)
Theorem C05_drop_accounting :
  forall evs cap,
    let s' := q_run {| q_items := []; q_cap := cap; q_dropped := 0; q_taken := [] |} evs in
    subseq (q_taken s' ++ q_items s') (offered evs) /\
    length (offered evs) = length (q_taken s' ++ q_items s') + q_dropped s'.
Proof.
  intros evs cap.
  exact (queue_accounting evs {| q_items := []; q_cap := cap; q_dropped := 0; q_taken := [] |} [] ss_nil eq_refl).
Qed.
Print Assumptions C05_drop_accounting.

(* pickle mode: any sequence of payloads below 4 GiB, each behind its 4-byte big-endian length, parses back
   into exactly those payloads, in order *)
Theorem C05_pickle_frames :
  forall ps, (forall p, In p ps -> (N.of_nat (length p) < 4294967296)%N) ->
    parse_frames (length ps) (concat (map frame ps)) = Some ps.
Proof. exact frames_roundtrip. Qed.
Print Assumptions C05_pickle_frames.
