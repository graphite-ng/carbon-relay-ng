(* C06 — a bad endpoint never stalls ingestion; steady-state losses are all counted. *)
From CRNG Require Import Base.Bytes Model.Relay Proofs.RelayProofs.
Local Open Scope N_scope.

(* In every state of the relay loop that has not been shut down — whatever the endpoint did before: never
   connected, connected and stalled, closed — a line offered on dest.In is taken, and taking it performs no
   operation that waits for another party: it goes to exactly one of conn.In / spool.InRT (select with
   default) or to a drop counter. *)
Theorem C06_hand_off_never_waits :
  forall s room, r_stopped s = false ->
    exists s' o, rstep s (EvIn room) = Some (s', [o]) /\ may_wait o = false /\ n_in s' = n_in s + 1.
Proof. exact hand_off_total. Qed.
Print Assumptions C06_hand_off_never_waits.

(* the only branches that call into a possibly stalled conn are the explicit flush and shutdown requests *)
Theorem C06_only_flush_and_shutdown_wait :
  forall s e s' outs, rstep s e = Some (s', outs) -> existsb may_wait outs = true -> e = EvFlush \/ e = EvShutdown.
Proof. exact only_flush_and_shutdown_wait. Qed.
Print Assumptions C06_only_flush_and_shutdown_wait.

(* conservation, for every event sequence from the start: every line taken (from In or from the spool)
   is in exactly one of: queued to the conn, slow_conn, queued to the spool, slow_spool, conn_down_no_spool *)
Theorem C06_conservation :
  forall spool evs s, rrun (rinit spool) evs = Some s ->
    n_in s + n_unspooled s = n_enq s + n_slow s + n_spooled s + n_slowspool s + n_noconn s.
Proof.
  intros spool evs s H. destruct (rrun_counted _ _ _ H) as (_ & G & _). unfold grows, outcomes in G. cbn in G. lia.
Qed.
Print Assumptions C06_conservation.

(* while the conn stays up (no death detected), spooling off: handed = queued to the conn + slow_conn,
   and conn_down_no_spool does not move *)
Theorem C06_steady_up :
  forall evs s s', r_spool s = false -> r_conn s = true -> existsb is_dead evs = false -> rrun s evs = Some s' ->
    r_conn s' = true /\ n_noconn s' = n_noconn s /\
    n_in s' - n_in s = (n_enq s' - n_enq s) + (n_slow s' - n_slow s) /\
    n_in s <= n_in s' /\ n_enq s <= n_enq s' /\ n_slow s <= n_slow s'.
Proof.
  intros evs s s' Hp Hc Hd H. destruct (rrun_counted _ _ _ H) as (_ & G & P & _ & U & _).
  specialize (P Hp). destruct (U Hc Hd) as (Hc' & U'). unfold grows, outcomes in G. split; [exact Hc'|lia].
Qed.
Print Assumptions C06_steady_up.

(* while it stays down, spooling off: every line is counted in conn_down_no_spool *)
Theorem C06_steady_down :
  forall evs s s', r_spool s = false -> r_conn s = false -> existsb is_connup evs = false -> rrun s evs = Some s' ->
    r_conn s' = false /\ n_enq s' = n_enq s /\ n_slow s' = n_slow s /\
    n_in s' - n_in s = n_noconn s' - n_noconn s /\ n_in s <= n_in s' /\ n_noconn s <= n_noconn s'.
Proof.
  intros evs s s' Hp Hc Hd H. destruct (rrun_counted _ _ _ H) as (_ & G & P & _ & _ & D).
  specialize (P Hp). destruct (D Hc Hd) as (Hc' & D'). unfold grows, outcomes in G. split; [exact Hc'|lia].
Qed.
Print Assumptions C06_steady_down.

Example C06_nonvacuous :
  rrun (rinit false) [EvUpdStart; EvConnUp; EvUpdEnd; EvIn true; EvIn false; EvTick; EvDead; EvIn true; EvTick; EvTick]
  = Some {| r_conn := false; r_spool := false; r_slow_now := false; r_slow_last := false; r_upd := 0; r_stopped := false;
            n_in := 3; n_unspooled := 0; n_enq := 1; n_slow := 1; n_spooled := 0; n_slowspool := 0; n_noconn := 1 |}.
Proof. exact relay_example. Qed.
