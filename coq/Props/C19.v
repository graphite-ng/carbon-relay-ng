(* C19 — order validation accepts a point only if it is newer than all accepted before. *)
From CRNG Require Import Base.Bytes Lib.Fnv Model.Fields Model.Validate Model.Matcher Model.Table Proofs.TableProofs Proofs.OrderedProofs Check.C19check Proofs.OrderedConc.

(* For every history of calls (= every linearisation: the real step runs entirely
   under one global mutex) over a set of names on which FNV-1a-64 does not collide,
   each call is accepted iff its timestamp exceeds the register of its name, i.e.
   iff it is positive and greater than every timestamp previously accepted for that name. *)
Theorem C19_max_register :
  forall (U : bytes -> Prop),
    (forall a b, U a -> U b -> fnv64a a = fnv64a b -> a = b) ->
    forall h, (forall n t, In (n, t) h -> U n) ->
    orun [] h = spec_run [] h.
Proof. intros U NC h Hu. apply (max_register U NC h [] []); [apply inv_init | exact Hu]. Qed.
Print Assumptions C19_max_register.

Theorem C19_accept_rule :
  forall acc n t, (maxts acc n <? t) = true <-> (0 < t /\ forall t', In (n, t') acc -> t' < t).
Proof. exact maxts_accept_iff. Qed.
Print Assumptions C19_accept_rule.

(* accepted timestamps of one name are strictly increasing in acceptance order (so never repeat) *)
Theorem C19_strictly_increasing :
  forall h, increasing (spec_acc [] h).
Proof. intros h. apply accepted_increasing. constructor. Qed.
Print Assumptions C19_strictly_increasing.

(* a rejected point is counted out-of-order, reported under its name, forwarded nowhere, and leaves the registers alone *)
Theorem C19_reject_effects :
  forall (search : rx -> bytes -> bool) t om buf v s ts key,
    validate_packet buf (t_ll t) (t_lm t) v s = (key, None) ->
    t_order t = true -> snd (ordered om key ts) = false ->
    let o := snd (dispatch search t om buf v s ts) in
    o_out_of_order o = true /\ o_bad o = Some (key, BadOutOfOrder) /\ o_routes o = [] /\ o_dests o = [] /\
    o_agg_consumed o = [] /\ o_invalid o = false /\ o_unroutable o = false /\ fst (dispatch search t om buf v s ts) = om.
Proof. exact dispatch_out_of_order. Qed.
Print Assumptions C19_reject_effects.

(* names differing only by a leading dot share one register: the key is the name without it *)
Theorem C19_leading_dot :
  forall buf ll lm v s key,
    validate_packet buf ll lm v s = (key, None) -> exists f0 f1 f2, fields buf = [f0; f1; f2] /\ key = strip_dot f0.
Proof. exact validate_three_fields. Qed.
Print Assumptions C19_leading_dot.

Example C19_nonvacuous :
  orun [] [([97], 5); ([97], 5); ([97], 7); ([98], 0); ([97], 6); ([98], 1)] = [true; false; true; false; false; true].
Proof. vm_compute. reflexivity. Qed.

(* Concurrency.  The locked section of validate.Ordered runs atomically; model: the calls of all dispatchers
   run in some global order sigma (any interleaving of any number of threads, names and timestamps), each
   accepted iff its timestamp exceeds everything accepted before for its name.  The histories the threads
   observe (thread by thread, in program order) pass, call by call, every condition that the acceptor hist_ok
   of the correspondence check tests — so the acceptor never rejects a run of correct code, whatever the
   schedule.  (Its remaining clause compares the out-of-order counter with the number of rejected calls.) *)
Theorem C19_acceptor_sound_for_every_interleaving :
  forall (sigma : list gev) (T : nat),
    (forall e, In e sigma -> (fst e < T)%nat) ->
    let h := history (annot sigma [] (fun _ => O)) T in
    forallb (call_ok (coords h)) (coords h) = true.
Proof. exact hist_ok_accepts_every_interleaving. Qed.
Print Assumptions C19_acceptor_sound_for_every_interleaving.
