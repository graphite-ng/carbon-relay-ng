(* C11 — aggregation output bypasses the pipeline, cannot loop; drop-raw is exact. *)
From CRNG Require Import Base.Bytes Model.Fields Model.Validate Model.Matcher Model.Rewriter Model.Table Model.Aggregator Proofs.TableProofs Proofs.RouteUpdate Proofs.DropRawProofs Proofs.AggregatorBound.
Local Open Scope nat_scope.

(* aggregate output is looked at by the routes only: it goes to every route whose filter accepts its
   name, is counted unroutable iff there is none, and is never validated, blacklisted, rewritten (the
   text handed on is the text received) or fed to an aggregation *)
Theorem C11_bypass :
  forall (search : rx -> bytes -> bool) rs buf,
    let o := dispatch_aggregate search rs buf in
    o_routes o = map (fun j => (j, buf)) (accepting (route_accepts search (name_of buf)) rs 0) /\
    o_agg_consumed o = [] /\ o_invalid o = false /\ o_blacklisted o = false /\ o_bad o = None /\
    (o_unroutable o = true <-> accepting (route_accepts search (name_of buf)) rs 0 = []).
Proof. exact dispatch_aggregate_routes. Qed.
Print Assumptions C11_bypass.

(* a route filter changed at run time (modRoute: route ri gets the filter m, in place) decides the very next aggregate line:
   route j receives it iff its CURRENT filter accepts the name - the new filter for j = ri, its own unchanged filter otherwise -
   whatever was routed before the change (the aggregate path keeps no memory of earlier verdicts) *)
Theorem C11_aggregate_routing_follows_route_updates :
  forall (search : rx -> bytes -> bool) rs ri m buf j,
    In (j, buf) (o_routes (dispatch_aggregate search (set_nth_route rs ri m) buf)) <->
    exists r, nth_error rs j = Some r /\
              mmatch search (if Nat.eqb j ri then m else r_matcher r) (name_of buf) = true.
Proof. exact aggregate_routing_follows_update. Qed.
Print Assumptions C11_aggregate_routing_follows_route_updates.

(* no loop, no amplification: whatever the rules (self-matching, chained), once raw input stops an
   aggregator emits at most the lines its open buckets hold, however many ticks follow *)
Theorem C11_no_amplification :
  forall F P pnew padd pflush interval wait ts (st : astate P),
    tick_run F P pnew padd pflush interval wait st ts <= capacity F P pflush (a_buckets P st).
Proof. intros. apply ticks_bounded. Qed.
Print Assumptions C11_no_amplification.

(* drop-raw, case 1: the first drop-raw aggregation whose complete filter takes the (rewritten) name
   stops the line; it and the plain takers before it are fed, no aggregation after it is *)
Theorem C11_dropraw_first_taker :
  forall search pre a post name,
    (forall b, In b pre -> a_dropraw b = true -> agg_takes search b name = false) ->
    a_dropraw a = true -> agg_takes search a name = true ->
    agg_loop search (pre ++ a :: post) 0 name =
    (accepting (fun b => agg_takes search b name) pre 0 ++ [length pre], true).
Proof. intros search pre a post. exact (agg_loop_drop search pre a post 0). Qed.
Print Assumptions C11_dropraw_first_taker.

(* ... and the dropped line reaches no route and no counter *)
Theorem C11_dropped_goes_nowhere :
  forall search t om buf v s ts f0 f1 f2,
    validate_packet buf (t_ll t) (t_lm t) v s = (strip_dot f0, None) ->
    fields buf = [f0; f1; f2] ->
    (t_order t = true -> snd (ordered om (strip_dot f0) ts) = true) ->
    existsb (fun m => mmatch search m f0) (t_blacklist t) = false ->
    snd (agg_loop search (t_aggs t) 0 (rewrite_all (t_rewriters t) f0)) = true ->
    let o := snd (dispatch search t om buf v s ts) in
    o_dropped_raw o = true /\ o_routes o = [] /\ o_dests o = [] /\ o_unroutable o = false /\ o_invalid o = false /\
    o_blacklisted o = false /\ o_agg_consumed o = fst (agg_loop search (t_aggs t) 0 (rewrite_all (t_rewriters t) f0)).
Proof. exact dropped_goes_nowhere. Qed.
Print Assumptions C11_dropped_goes_nowhere.

(* drop-raw, case 2: a metric no drop-raw aggregation takes is treated exactly as in the table with drop-raw switched off *)
Theorem C11_others_unaffected :
  forall search aggs name,
    (forall a, In a aggs -> a_dropraw a = true -> agg_takes search a name = false) ->
    agg_loop search aggs 0 name = agg_loop search (map undrop aggs) 0 name /\
    agg_loop search aggs 0 name = (accepting (fun a => agg_takes search a name) aggs 0, false).
Proof. intros. split; [apply unaffected_by_dropraw | apply agg_loop_no_drop]; assumption. Qed.
Print Assumptions C11_others_unaffected.
