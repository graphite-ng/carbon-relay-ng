(* C13 — pickle input is equivalent to the plain-text input for the same datapoints. *)
From CRNG Require Import Base.Bytes Model.PickleVM Model.Reencode Model.PickleIn Model.PyPickle Proofs.PickleInProofs Proofs.PickleIn1 Proofs.PickleIn0 Proofs.PickleIn4 Proofs.PickleInLong Proofs.PickleIn4Long.
Local Open Scope N_scope.

(* Decoding (the og-rek machine, any text-float oracle) what CPython's pickler writes in protocol 2 or 3
   for a list of (name, (timestamp, value)) tuples gives back that list: every name below 2^31 bytes,
   integers 0 <= n < 2^31 (BININT1 / BININT2 / BININT) and every float64, any number of items whose
   memo indices fit 32 bits.  (Negative BININTs are excluded: see C13_negative_binint_refuted.) *)
Theorem C13_decode_what_python_encodes :
  forall pf proto ds,
    forallb dp_ok ds = true -> 3 * N.of_nat (length ds) + 1 < 4294967296 ->
    unpickle pf false (py_dumps proto ds)
    = RDone (VList (map (fun d => VTuple [VStr (d_name d); VTuple [num_val (d_ts d); num_val (d_val d)]]) ds)).
Proof. intros pf proto ds H _. exact (unpickle_py_dumps pf proto ds H). Qed.
Print Assumptions C13_decode_what_python_encodes.

(* A connection carrying any number of such frames (4-byte big-endian length, then the pickle) hands on
   exactly the equivalent plain-text lines "name value timestamp", in order — integers verbatim, floats
   through %f (value) and %.0f (timestamp) — and ends without error. *)
Theorem C13_frames_become_lines :
  forall pf fmt6 fmt0 (pss : list (N * list pydp)),
    Forall (fun pd => frame_ok (fst pd) (snd pd)) pss ->
    handle_conn pf fmt6 fmt0 (concat (map (fun pd => frame_of (py_dumps (fst pd) (snd pd))) pss))
    = (concat (map (fun pd => map (fun d => EvLine (line_of fmt6 fmt0 d)) (snd pd)) pss), FinOk).
Proof.
  intros pf fmt6 fmt0. apply handle_conn_carries. intros pd. apply frame_ok_carries.
Qed.
Print Assumptions C13_frames_become_lines.

(* protocol 4 (the default since Python 3.8): PROTO 4, FRAME, SHORT_BINUNICODE / BINUNICODE, MEMOIZE, TUPLE2 *)
Theorem C13_decode_what_python_encodes_protocol4 :
  forall pf ds, forallb dp_ok ds = true ->
    unpickle pf false (py_dumps4 ds)
    = RDone (VList (map (fun d => VTuple [VStr (d_name d); VTuple [num_val (d_ts d); num_val (d_val d)]]) ds)).
Proof. exact unpickle_py_dumps4. Qed.
Print Assumptions C13_decode_what_python_encodes_protocol4.

(* protocol 1 (binary opcodes, no PROTO header, tuples as MARK ... TUPLE) *)
Theorem C13_decode_what_python_encodes_protocol1 :
  forall pf ds, forallb dp_ok ds = true -> 3 * N.of_nat (length ds) + 1 < 4294967296 ->
    unpickle pf false (py_dumps1 ds)
    = RDone (VList (map (fun d => VTuple [VStr (d_name d); VTuple [num_val (d_ts d); num_val (d_val d)]]) ds)).
Proof. intros pf ds H _. exact (unpickle_py_dumps1 pf ds H). Qed.
Print Assumptions C13_decode_what_python_encodes_protocol1.

(* protocol 0 (text opcodes: MARK LIST PUT, UNICODE, INT, FLOAT, TUPLE, APPEND): names of the characters pickle writes verbatim
   (ASCII without NUL, LF, CR, SUB, backslash), integers 0 <= n < 2^31 as decimal text, floats as their repr().  The float
   text goes through the two oracles of the run: frepr (CPython's repr, by bits) and pf (strconv.ParseFloat); the theorem
   holds for every pair with pf (frepr b) = Some b whose texts contain no line break — both correctly rounded in reality. *)
Theorem C13_decode_what_python_encodes_protocol0 :
  forall pf frepr,
    (forall b, pf (frepr b) = Some b) -> (forall b, ~ In 10 (frepr b) /\ ~ In 13 (frepr b)) ->
    forall ds, forallb dp_ok0 ds = true ->
      unpickle pf false (py_dumps0 frepr ds)
      = RDone (VList (map (fun d => VTuple [VStr (d_name d); VTuple [num_val (d_ts d); num_val (d_val d)]]) ds)).
Proof. exact unpickle_py_dumps0_all. Qed.
Print Assumptions C13_decode_what_python_encodes_protocol0.

Theorem C13_frame_then_rest_protocol0 :
  forall pf frepr,
    (forall b, pf (frepr b) = Some b) -> (forall b, ~ In 10 (frepr b) /\ ~ In 13 (frepr b)) ->
    forall fmt6 fmt0 f ds rest,
      frame_ok0 frepr ds ->
      handle_stream pf fmt6 fmt0 (S f) (frame_of (py_dumps0 frepr ds) ++ rest)
      = let (evs, fn) := handle_stream pf fmt6 fmt0 f rest in
        (map (fun d => EvLine (line_of fmt6 fmt0 d)) ds ++ evs, fn).
Proof.
  intros pf frepr H1 H2 fmt6 fmt0 f ds rest H. apply handle_frame_carries, (frame_ok0_carries pf frepr H1 H2), H.
Qed.
Print Assumptions C13_frame_then_rest_protocol0.

(* one connection, any number of frames, each of protocol 1, 2, 3 or 4 *)
Theorem C13_frames_become_lines_mixed_protocols :
  forall pf fmt6 fmt0 (pss : list (N * list pydp)),
    Forall frame_ok4 pss ->
    handle_conn pf fmt6 fmt0 (concat (map (fun pd => frame_of (payload pd)) pss))
    = (concat (map (fun pd => map (fun d => EvLine (line_of fmt6 fmt0 d)) (snd pd)) pss), FinOk).
Proof.
  intros pf fmt6 fmt0. apply handle_conn_carries, frame_ok4_carries.
Qed.
Print Assumptions C13_frames_become_lines_mixed_protocols.

(* one connection, any number of frames, each of ANY protocol 0-4 (protocol 0 under the float-text premise) *)
Theorem C13_frames_become_lines_all_protocols :
  forall pf frepr,
    (forall b, pf (frepr b) = Some b) -> (forall b, ~ In 10 (frepr b) /\ ~ In 13 (frepr b)) ->
    forall fmt6 fmt0 (pss : list (N * list pydp)),
      Forall (frame_okr frepr) pss ->
      handle_conn pf fmt6 fmt0 (concat (map (fun pd => frame_of (payload_r frepr pd)) pss))
      = (concat (map (fun pd => map (fun d => EvLine (line_of fmt6 fmt0 d)) (snd pd)) pss), FinOk).
Proof.
  intros pf frepr H1 H2 fmt6 fmt0. apply handle_conn_carries, (frame_okr_carries pf frepr H1 H2).
Qed.
Print Assumptions C13_frames_become_lines_all_protocols.

(* Integers beyond int32 (protocols 2 and 3): CPython writes LONG1 — a length byte k = (bit_length >> 3) + 1 and the k little-endian
   bytes — and og-rek reads it back as a big integer, for EVERY non-negative integer whose length byte stays within 127
   (n < 2^1015; above that lies the recorded og-rek finding C13:known:huge_long).  py_dumpsL coincides with py_dumps where the
   latter applies (C13_long_model_extends_int32_model), so this statement subsumes C13_decode_what_python_encodes. *)
Theorem C13_decode_what_python_encodes_long :
  forall pf proto ds,
    forallb dp_okL ds = true -> 3 * N.of_nat (length ds) + 1 < 4294967296 ->
    unpickle pf false (py_dumpsL proto ds)
    = RDone (VList (map (fun d => VTuple [VStr (d_name d); VTuple [num_valL (d_ts d); num_valL (d_val d)]]) ds)).
Proof. intros pf proto ds H _. exact (unpickle_py_dumpsL pf proto ds H). Qed.
Print Assumptions C13_decode_what_python_encodes_long.

(* ... and the connection hands on the same text as the plain-text input would carry: the integer verbatim in decimal *)
Theorem C13_frames_become_lines_long :
  forall pf fmt6 fmt0 (pss : list (N * list pydp)),
    Forall (fun pd => frame_okL (fst pd) (snd pd)) pss ->
    handle_conn pf fmt6 fmt0 (concat (map (fun pd => frame_of (py_dumpsL (fst pd) (snd pd))) pss))
    = (concat (map (fun pd => map (fun d => EvLine (line_of fmt6 fmt0 d)) (snd pd)) pss), FinOk).
Proof.
  intros pf fmt6 fmt0. apply handle_conn_carries. intros pd. apply frame_okL_carries.
Qed.
Print Assumptions C13_frames_become_lines_long.

Theorem C13_frame_then_rest_long :
  forall pf fmt6 fmt0 f proto ds rest,
    frame_okL proto ds ->
    handle_stream pf fmt6 fmt0 (S f) (frame_of (py_dumpsL proto ds) ++ rest)
    = let (evs, fn) := handle_stream pf fmt6 fmt0 f rest in
      (map (fun d => EvLine (line_of fmt6 fmt0 d)) ds ++ evs, fn).
Proof.
  intros pf fmt6 fmt0 f proto ds rest H. apply handle_frame_carries, frame_okL_carries, H.
Qed.
Print Assumptions C13_frame_then_rest_long.

(* the same for protocol 4 (FRAME, SHORT_BINUNICODE, MEMOIZE), the default of Python 3.8 and later *)
Theorem C13_decode_what_python_encodes_long_protocol4 :
  forall pf ds, forallb dp_okL ds = true ->
    unpickle pf false (py_dumps4L ds)
    = RDone (VList (map (fun d => VTuple [VStr (d_name d); VTuple [num_valL (d_ts d); num_valL (d_val d)]]) ds)).
Proof. exact unpickle_py_dumps4L. Qed.
Print Assumptions C13_decode_what_python_encodes_long_protocol4.

(* one connection, any number of frames of protocols 2, 3 and 4 mixed, integers of any size up to 2^1015 *)
Theorem C13_frames_become_lines_long_mixed_protocols :
  forall pf fmt6 fmt0 (pss : list (N * list pydp)),
    Forall frame_ok4L pss ->
    handle_conn pf fmt6 fmt0 (concat (map (fun pd => frame_of (payloadL pd)) pss))
    = (concat (map (fun pd => map (fun d => EvLine (line_of fmt6 fmt0 d)) (snd pd)) pss), FinOk).
Proof.
  intros pf fmt6 fmt0. apply handle_conn_carries, frame_ok4L_carries.
Qed.
Print Assumptions C13_frames_become_lines_long_mixed_protocols.

Theorem C13_long_model_extends_int32_model :
  forall proto ds, forallb dp_ok ds = true -> py_dumpsL proto ds = py_dumps proto ds /\ forallb dp_okL ds = true.
Proof.
  intros proto ds H. split; [exact (py_dumpsL_small proto ds H)|].
  rewrite forallb_forall in *. intros d Hd. apply dp_ok_okL, H, Hd.
Qed.
Print Assumptions C13_long_model_extends_int32_model.

(* the two's-complement reading of the k bytes CPython writes for n > 0 is n itself, for every n *)
Theorem C13_long1_bytes_read_back :
  forall n, 0 < n -> twos (le_bytes (N.to_nat (long_len n)) n) = Z.of_N n.
Proof. exact twos_long. Qed.
Print Assumptions C13_long1_bytes_read_back.

(* one frame followed by anything: its lines come first, whatever the rest of the stream does *)
Theorem C13_frame_then_rest :
  forall pf fmt6 fmt0 f proto ds rest,
    frame_ok proto ds ->
    handle_stream pf fmt6 fmt0 (S f) (frame_of (py_dumps proto ds) ++ rest)
    = let (evs, fn) := handle_stream pf fmt6 fmt0 f rest in
      (map (fun d => EvLine (line_of fmt6 fmt0 d)) ds ++ evs, fn).
Proof.
  intros pf fmt6 fmt0 f proto ds rest H. apply handle_frame_carries, frame_ok_carries, H.
Qed.
Print Assumptions C13_frame_then_rest.

(* an item (tuple or list) of a name and a (timestamp, value) pair (tuple or list) becomes the line
   "name value timestamp"; anything else is counted invalid and does not disturb its neighbours
   (handle_stream maps handle_item over the decoded list) *)
Theorem C13_item_line :
  forall fmt6 fmt0 name t v vt tx it d,
    as_seq it = Some [VStr name; d] -> as_seq d = Some [t; v] ->
    value_text fmt6 v = Some vt -> ts_text fmt0 t = Some tx ->
    handle_item fmt6 fmt0 it = EvLine (name ++ [32] ++ vt ++ [32] ++ tx).
Proof.
  intros fmt6 fmt0 name t v vt tx it d H1 H2 H3 H4. unfold handle_item. rewrite H1, H2, H3, H4. reflexivity.
Qed.
Print Assumptions C13_item_line.

Theorem C13_bad_item_counted :
  forall fmt6 fmt0 it, as_seq it = None -> handle_item fmt6 fmt0 it = EvInvalid.
Proof. intros fmt6 fmt0 it H. unfold handle_item. rewrite H. reflexivity. Qed.
Print Assumptions C13_bad_item_counted.

(* The statement is false for negative integers in BININT range: the pinned og-rek reads BININT as
   unsigned.  This is pickle.dumps([('a', (1, -1))], 2), framed: the line says 4294967295.
   (Recorded as a known finding; the check replays it against the implementation on every run.) *)
Example C13_negative_binint_refuted :
  handle_conn (fun _ => None) (fun _ => []) (fun _ => [])
    [0;0;0;28; 128;2;93;113;0;88;1;0;0;0;97;113;1;75;1;74;255;255;255;255;134;113;2;134;113;3;97;46]
  = ([EvLine [97; 32; 52;50;57;52;57;54;55;50;57;53; 32; 49]], FinOk).
Proof. exact negative_binint_refuted. Qed.

Example C13_protocol0_nonvacuous :
  (* pickle.dumps([("a b'", (1, 1.5))], 0), with repr(1.5) = "1.5" *)
  py_dumps0 (fun _ => [49; 46; 53]) [ {| d_name := [97; 32; 98; 39]; d_ts := PyInt 1; d_val := PyFloat 4609434218613702656 |} ]
  = [40;108;112;48;10; 40;86;97;32;98;39;10;112;49;10; 40;73;49;10;70;49;46;53;10;116;112;50;10;116;112;51;10;97;46]
  /\ dp_ok0 {| d_name := [97; 32; 98; 39]; d_ts := PyInt 1; d_val := PyFloat 4609434218613702656 |} = true.
Proof. vm_compute. auto. Qed.

Example C13_nonvacuous :
  frame_ok 2 [ {| d_name := [102;111;111]; d_ts := PyInt 1500000000; d_val := PyFloat 4609434218613702656 |};
               {| d_name := [98]; d_ts := PyInt 7; d_val := PyInt 300 |} ].
Proof. unfold frame_ok. split; [reflexivity|]. split; vm_compute; [reflexivity | discriminate]. Qed.

Example C13_long_nonvacuous :
  (* pickle.dumps([("a", (2**31, 2**64 + 5))], 2) *)
  py_dumpsL 2 [ {| d_name := [97]; d_ts := PyInt 2147483648; d_val := PyInt 18446744073709551621 |} ]
  = [128;2;93;113;0;88;1;0;0;0;97;113;1;138;5;0;0;0;128;0;138;9;5;0;0;0;0;0;0;0;1;134;113;2;134;113;3;97;46]
  /\ frame_okL 2 [ {| d_name := [97]; d_ts := PyInt 2147483648; d_val := PyInt 18446744073709551621 |} ]
  /\ num_okL (PyInt (2 ^ 1015 - 1)) = true /\ num_okL (PyInt (2 ^ 1015)) = false.
Proof. unfold frame_okL. repeat split; vm_compute; discriminate. Qed.

Example C13_long_protocol4_nonvacuous :
  (* pickle.dumps([("a", (2**31, 2**64 + 5))], 4) *)
  py_dumps4L [ {| d_name := [97]; d_ts := PyInt 2147483648; d_val := PyInt 18446744073709551621 |} ]
  = [128;4;149;30;0;0;0;0;0;0;0;93;148;140;1;97;148;138;5;0;0;0;128;0;138;9;5;0;0;0;0;0;0;0;1;134;148;134;148;97;46]
  /\ frame_ok4L (4, [ {| d_name := [97]; d_ts := PyInt 2147483648; d_val := PyInt 18446744073709551621 |} ]).
Proof. unfold frame_ok4L. repeat split; vm_compute; discriminate. Qed.
