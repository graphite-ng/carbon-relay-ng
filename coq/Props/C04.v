(* C04 — forwarded line = rewritten name + untouched value/timestamp; buffers isolated. *)
From CRNG Require Import Base.Bytes Lib.Regex Model.Fields Model.Validate Model.Matcher Model.Rewriter Model.Table Proofs.TableProofs Proofs.RewriterProofs.
Local Open Scope nat_scope.

(* Every route that receives the line receives exactly
      rewrite_all rewriters name ++ " " ++ value ++ " " ++ timestamp
   where value and timestamp are the second and third white-space separated
   tokens of the input, byte for byte (whatever the white-space layout and
   the numeric spelling: the tokens are never re-formatted), and every
   recipient receives the same text. *)
Theorem C04_line_shape :
  forall (search : rx -> bytes -> bool) t om buf v s ts f0 f1 f2,
    validate_packet buf (t_ll t) (t_lm t) v s = (strip_dot f0, None) ->
    fields buf = [f0; f1; f2] ->
    (t_order t = true -> snd (ordered om (strip_dot f0) ts) = true) ->
    existsb (fun m => mmatch search m f0) (t_blacklist t) = false ->
    snd (agg_loop search (t_aggs t) 0 (rewrite_all (t_rewriters t) f0)) = false ->
    let final := rewrite_all (t_rewriters t) f0 ++ [32%N] ++ f1 ++ [32%N] ++ f2 in
    let o := snd (dispatch search t om buf v s ts) in
    (forall j l, In (j, l) (o_routes o) -> l = final) /\
    (forall j d l, In (j, d, l) (o_dests o) -> l = final).
Proof. intros search t om buf v s ts f0 f1 f2 _ Hf _ _ _. exact (dispatch_line_shape search t om buf v s ts f0 f1 f2 Hf). Qed.
Print Assumptions C04_line_shape.

(* the value and timestamp tokens are non-empty and contain no space: the
   delivered line has exactly two single separating spaces after the name *)
Theorem C04_tokens_clean :
  forall buf tok, In tok (fields buf) -> tok <> [] /\ ~ In 32%N tok.
Proof. exact fields_tokens. Qed.
Print Assumptions C04_tokens_clean.

(* rewriters apply in configured order *)
Theorem C04_rewrite_order :
  forall rs1 rs2 n, rewrite_all (rs1 ++ rs2) n = rewrite_all rs2 (rewrite_all rs1 n).
Proof. exact rewrite_all_app. Qed.
Print Assumptions C04_rewrite_order.

(* a rule whose not-clause (substring or /regex/) matches is skipped *)
Theorem C04_not_skips :
  forall r buf,
    (match rw_notre r with
     | Some nr => re_search nr buf
     | None => nonempty (rw_not r) && contains (rw_not r) buf
     end) = true -> rw_do r buf = buf.
Proof. exact rw_not_skips. Qed.
Print Assumptions C04_not_skips.

(* literal rules: max = 0 replaces nothing, an absent pattern replaces nothing,
   and with max <> 0 the leftmost occurrence is replaced first *)
Theorem C04_literal_max :
  forall fuel s old new n,
    replace_n fuel s old new 0 = s /\
    (contains old s = false -> replace_n fuel s old new n = s) /\
    ((n <> 0)%Z -> has_prefix old s = true -> s <> [] ->
     replace_n (S fuel) s old new n =
     new ++ replace_n fuel (skipn (length old) s) old new (if (n <? 0)%Z then n else n - 1)%Z).
Proof.
  intros. split; [apply replace_n_zero|]. split; [apply replace_n_absent|apply replace_n_first].
Qed.
Print Assumptions C04_literal_max.

Local Open Scope N_scope.
Example C04_nonvacuous :
  rw_do {| rw_old := [97]; rw_new := [98; 98]; rw_not := []; rw_max := 2; rw_re := None; rw_notre := None |}
        [97; 120; 97; 97] = [98; 98; 120; 98; 98; 97] /\
  re_replace_all (Cat (Grp 1 (Plus true (Cls false [(97, 122)]))) (Chr 46)) [102;111;111;46;98;97;114;46;120]
                 [36;123;49;125;95] = [102;111;111;95;98;97;114;95;120].
Proof. vm_compute. auto. Qed.
