(* C17 — grafana.net route: retry until acknowledged, series order kept, shutdown drains. *)
From CRNG Require Import Base.Bytes Model.GrafanaNet Proofs.GrafanaNetProofs Proofs.ShardProofs.
Local Open Scope nat_scope.

(* a flush posts the same body until the first 2xx: the attempts are failures followed by exactly one
   acknowledgement, the unused part of the fault sequence is left for later *)
Theorem C17_retry_until_ack :
  forall faults used rest,
    retry faults = Some (used, rest) ->
    faults = used ++ rest /\ exists fails, used = fails ++ [Ok2xx] /\ forallb (fun o => negb (is_ok o)) fails = true.
Proof. exact retry_spec. Qed.
Print Assumptions C17_retry_until_ack.

(* fairness hypothesis made explicit: whenever the endpoint eventually answers 2xx the flush completes *)
Theorem C17_ack_reached : forall faults, In Ok2xx faults -> retry faults <> None.
Proof. exact retry_total. Qed.
Print Assumptions C17_ack_reached.

(* no batch is skipped or altered between attempts *)
Theorem C17_same_body_until_ack :
  forall A (w w' : wstate A),
    do_flush A w = Some w' ->
    total A w' = total A w /\ w_batch A w' = [] /\ w_queue A w' = w_queue A w /\ w_done A w' = w_done A w /\
    exists attempts, w_posts A w' = w_posts A w ++ map (fun o => (w_batch A w, o)) attempts /\
                     (w_batch A w = [] -> attempts = []) /\
                     (w_batch A w <> [] -> exists fails, attempts = fails ++ [Ok2xx] /\ forallb (fun o => negb (is_ok o)) fails = true).
Proof. exact do_flush_spec. Qed.
Print Assumptions C17_same_body_until_ack.

(* for every sequence of worker events and every fault sequence: acknowledged ++ batch ++ queue is exactly what the
   shard received, in order — so what was acknowledged is a prefix of it, and one series (one shard) keeps its order *)
Theorem C17_series_order :
  forall A flush_max (w : wstate A) e w', wstep A flush_max w e = Some w' -> total A w' = total A w.
Proof. exact step_total. Qed.
Print Assumptions C17_series_order.

(* a full shard buffer: non-blocking mode drops (and says so), blocking mode waits and drops nothing *)
Theorem C17_buffer_full :
  forall A blocking cap (q : list A) m,
    (cap <= length q -> enqueue A blocking cap q m = if blocking then None else Some (q, true)) /\
    (length q < cap -> enqueue A blocking cap q m = Some (q ++ [m], false)).
Proof. intros. split; [apply buffer_full|apply buffer_room]. Qed.
Print Assumptions C17_buffer_full.

(* shutdown: every worker takes in what is still queued for it, flushes, and reports done *)
Theorem C17_shutdown_drains :
  forall A flush_max (w w' : wstate A),
    w_done A w = false -> wstep A flush_max w WShutdown = Some w' ->
    w_done A w' = true /\ w_queue A w' = [] /\ w_batch A w' = [] /\ acked A w' = total A w.
Proof. exact shutdown_drains. Qed.
Print Assumptions C17_shutdown_drains.

Local Open Scope N_scope.
(* "The points of one series": a series is a name plus a SET of tags.  Dispatch (as repaired, 5b94d75) picks the worker from the
   sum of the fnv32a hashes of the name and of each tag, so the same series, its tags listed in any order, is queued to the same
   worker — whose queue, batches and posts keep the order (C17_series_order).  For a name without tags it is the fnv32a hash of
   the name, as before.  (It used to be the hash of the text as sent: with a concurrency that is not a power of two the same
   series could be spread over several workers and its points acknowledged out of order.) *)
Theorem C17_shard_independent_of_tag_order :
  forall conc name tags tags',
    no_sep name -> Forall no_sep tags -> Permutation.Permutation tags tags' ->
    shard_of conc (join [59] (name :: tags)) = shard_of conc (join [59] (name :: tags')).
Proof. intros conc name tags tags' _ _. apply shard_tag_order. Qed.
Print Assumptions C17_shard_independent_of_tag_order.

Theorem C17_shard_of_untagged_name :
  forall conc name, no_sep name -> shard_of conc name = (Lib.Fnv.fnv32a name mod conc).
Proof. exact shard_untagged. Qed.
Print Assumptions C17_shard_of_untagged_name.

Example C17_shard_example :
  (* a.b;x=1;y=2 and a.b;y=2;x=1 with the default concurrency of 100 *)
  shard_of 100 [97;46;98;59;120;61;49;59;121;61;50] = shard_of 100 [97;46;98;59;121;61;50;59;120;61;49]
  /\ Lib.Fnv.fnv32a [97;46;98;59;120;61;49;59;121;61;50] mod 100 <> Lib.Fnv.fnv32a [97;46;98;59;121;61;50;59;120;61;49] mod 100.
Proof. vm_compute. split; [reflexivity | discriminate]. Qed.
