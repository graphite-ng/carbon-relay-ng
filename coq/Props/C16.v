(* C16 — re-encoding a line for pickle, grafana.net or Kafka preserves the datapoint. *)
From CRNG Require Import Base.Bytes Base.Decimal Base.Order Lib.Regex Model.Fields Model.Matcher Model.PickleVM Model.Reencode Proofs.ReencodeProofs.
From Coq Require Import Permutation.
Local Open Scope N_scope.

(* The pickle that a pickle-mode destination emits for (name, timestamp, value) is decoded by the
   pickle machine — CPython's reading (py = true) as well as og-rek's own (py = false), with any
   text-float oracle — to exactly [(name, (timestamp, value))]: same name bytes, the integer timestamp,
   the same float64 bits; for every name shorter than 2^32 bytes, every uint32 timestamp (BININT1,
   BININT2, BININT and the decimal 'I' form above 2^31) and every float64. *)
Theorem C16_pickle_roundtrip :
  forall pf py name ts bits,
    N.of_nat (length name) < 4294967296 -> ts < 4294967296 -> bits < 18446744073709551616 ->
    unpickle pf py (og_pickle_dp name ts bits) = RDone (VList [VTuple [VStr name; VTuple [VInt (Z.of_N ts); VFloat bits]]]).
Proof. exact pickle_roundtrip. Qed.
Print Assumptions C16_pickle_roundtrip.

(* the frame is the 4-byte big-endian length of the pickle followed by the pickle *)
Theorem C16_frame_header :
  forall name ts bits,
    N.of_nat (length (og_pickle_dp name ts bits)) < 4294967296 ->
    exists hdr, take 4 (pickle_frame name ts bits) = Some (hdr, og_pickle_dp name ts bits)
                /\ be_num hdr = N.of_nat (length (og_pickle_dp name ts bits)).
Proof. exact frame_header. Qed.
Print Assumptions C16_frame_header.

(* name, value and timestamp are the line's three tokens: the value through ParseFloat, the timestamp a
   plain decimal below 2^32 — and every such line is written, as that frame *)
Theorem C16_datapoint_tokens :
  forall pf line n b ts,
    parse_dp pf line = Some (n, b, ts) <->
    exists v t, fields line = [n; v; t] /\ pf v = Some b /\ dec_parse t = Some ts /\ ts < 4294967296.
Proof. exact parse_dp_spec. Qed.
Print Assumptions C16_datapoint_tokens.

Theorem C16_representable_written :
  forall pf line n v t b ts,
    fields line = [n; v; t] -> pf v = Some b -> dec_parse t = Some ts -> ts < 4294967296 ->
    pickle_write pf line = (pickle_frame n ts b, false).
Proof. exact representable_written. Qed.
Print Assumptions C16_representable_written.

(* a line whose value is not a float, or whose timestamp is not a decimal integer below 2^32 (or that has
   not exactly three fields), is skipped and counted: nothing at all is written for it *)
Theorem C16_unrepresentable_skipped :
  forall pf line,
    (forall n v t, fields line = [n; v; t] ->
       pf v = None \/ dec_parse t = None \/ exists k, dec_parse t = Some k /\ 4294967296 <= k) ->
    pickle_write pf line = ([], true).
Proof. exact unrepresentable_skipped. Qed.
Print Assumptions C16_unrepresentable_skipped.

(* The metric record for grafana.net / Kafka: series name = the text before the first ';' (dots
   canonicalised by the metrictank library: empty nodes removed), tags = the rest, sorted, all valid;
   value, timestamp and org id as given; interval = first retention of the rule selected for the name
   as Graphite presents it (bare name when untagged, name;sorted tags otherwise). *)
Theorem C16_metric_record :
  forall pf search rs org line md,
    parse_metric pf search rs org line = Some md ->
    exists nwt v t i r,
      fields line = [nwt; v; t] /\
      md_name md = eat_dots (hd [] (split_on 59 nwt)) /\
      Permutation (tl (split_on 59 nwt)) (md_tags md) /\ sorted bleb (md_tags md) /\
      forallb valid_tag (md_tags md) = true /\
      pf v = Some (md_val md) /\ dec_parse t = Some (md_time md) /\ md_time md < 4294967296 /\
      md_org md = org /\ org <> 0%Z /\
      select search rs (presented (hd [] (split_on 59 nwt)) (md_tags md)) = Some (i, r) /\
      first_precision (r_ret r) = Some (md_interval md).
Proof. exact metric_record. Qed.
Print Assumptions C16_metric_record.

(* the selected rule is the matching rule of highest priority, the earliest in the file among equals *)
Theorem C16_rule_selection :
  forall search rs key i r,
    N.of_nat (length rs) < 4294967296 ->
    select search rs key = Some (i, r) ->
    nth_error rs i = Some r /\ search (r_rx r) key = true /\
    forall j r', nth_error rs j = Some r' -> search (r_rx r') key = true ->
      (r_prio r' < r_prio r)%Z \/ (r_prio r' = r_prio r /\ (i <= j)%nat).
Proof. exact select_spec. Qed.
Print Assumptions C16_rule_selection.

Theorem C16_some_rule_is_selected :
  forall search rs key,
    select search rs key = None <-> forall j r', nth_error rs j = Some r' -> search (r_rx r') key = false.
Proof. exact select_none. Qed.
Print Assumptions C16_some_rule_is_selected.

(* invalid tags: no record is built (the routes log and skip the line) *)
Theorem C16_invalid_tags_skipped :
  forall pf search rs org nwt v t line,
    fields line = [nwt; v; t] ->
    existsb (fun tg => negb (valid_tag tg)) (tl (split_on 59 nwt)) = true ->
    parse_metric pf search rs org line = None.
Proof. exact invalid_tag_no_record. Qed.
Print Assumptions C16_invalid_tags_skipped.

Example C16_nonvacuous :
  let rs := [ {| r_rx := {| rx_src := [46;42]; rx_ast := Star true Any |}; r_prio := 0; r_ret := [49;48;115;58;49;100] |};
              {| r_rx := {| rx_src := [94;97;36]; rx_ast := Cat Bol (Cat (Chr 97) Eol) |}; r_prio := 1; r_ret := [54;48;58;49;48] |} ] in
  parse_metric (fun _ => Some 4607182418800017408) rx_search rs 1 [97; 32; 49; 32; 53]
  = Some {| md_name := [97]; md_tags := []; md_val := 4607182418800017408; md_time := 5; md_org := 1; md_interval := 60 |}
  /\ unpickle (fun _ => None) true (og_pickle_dp [102;111;111] 2500000000 4607182418800017408)
     = RDone (VList [VTuple [VStr [102;111;111]; VTuple [VInt 2500000000; VFloat 4607182418800017408]]]).
Proof. vm_compute. auto. Qed.
