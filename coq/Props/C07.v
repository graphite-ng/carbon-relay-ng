(* C07 — with spooling on, an endpoint outage loses nothing that is not counted. *)
From CRNG Require Import Base.Bytes Model.Relay Model.Spooling Proofs.RelayProofs Proofs.SpoolingProofs.
Local Open Scope N_scope.

(* For every schedule of hand-offs, conn moves, deliveries, breaks (noticed late or at once), recoveries,
   keepSafe rotations and ticks: every handed-off line is, at every moment, received, or still in conn.In,
   keepSafe or the spool, or counted in slow_conn / slow_spool.  (keepSafe forgets only received lines: the
   code's retention assumption, as the enabling condition of SForget.) *)
Theorem C07_no_uncounted_loss :
  forall evs s, srun sinit evs = Some s ->
    forall id, In id (s_handed s) ->
      In id (s_recv s) \/ In id (s_q s) \/ In id (s_keep s) \/ In id (s_spool s) \/ In id (s_slow s) \/ In id (s_slowspool s).
Proof. exact reachable_safe. Qed.
Print Assumptions C07_no_uncounted_loss.

(* hence, once everything has drained, the distinct lines never received number at most slow_conn + slow_spool *)
Theorem C07_missing_bounded :
  forall evs s missing, srun sinit evs = Some s -> drained s -> NoDup missing ->
    (forall x, In x missing -> In x (s_handed s) /\ ~ In x (s_recv s)) ->
    (length missing <= length (s_slow s) + length (s_slowspool s))%nat.
Proof. intros evs s missing H. exact (missing_bounded s missing (reachable_safe evs s H)). Qed.
Print Assumptions C07_missing_bounded.

(* lines in flight when the outage is noticed (in conn.In or keepSafe) are replayed through the spool *)
Theorem C07_redo_replays :
  forall s s', sstep s SNotice = Some s' -> forall x, In x (s_q s) \/ In x (s_keep s) -> In x (s_spool s').
Proof. exact notice_replays. Qed.
Print Assumptions C07_redo_replays.

(* while the endpoint stays up and the conn is not slow, each of unspool / take / deliver is enabled as long
   as its queue is non-empty, and shortens the backlog *)
Theorem C07_drain_progress :
  forall s, s_conn s = true -> s_alive s = true -> s_now s = false -> s_last s = false ->
  (s_spool s <> [] -> exists s', sstep s (SUnspool true) = Some s' /\ (backlog s' <= backlog s)%nat /\ length (s_spool s') = pred (length (s_spool s))) /\
  (s_q s <> [] -> exists s', sstep s STake = Some s' /\ (backlog s' < backlog s)%nat) /\
  (s_wire s <> [] -> exists s', sstep s SDeliver = Some s' /\ (backlog s' < backlog s)%nat).
Proof. exact drain_progress. Qed.
Print Assumptions C07_drain_progress.

(* the relay loop only unspools through a live conn that was not slow in this or the last period *)
Theorem C07_unspool_gate :
  forall s room s' outs, rstep s (EvUnspool room) = Some (s', outs) ->
    r_conn s = true /\ r_spool s = true /\ r_slow_now s = false /\ r_slow_last s = false.
Proof. exact unspool_gate. Qed.
Print Assumptions C07_unspool_gate.

Example C07_nonvacuous :
  match srun sinit [SConnUp; SIn 1 true; STake; SDeliver; SIn 2 true; STake; SBreak; SIn 3 true; SNotice; SIn 4 true;
                    SConnUp; SUnspool true; STake; SBreak; SNotice; SConnUp;
                    SUnspool true; SUnspool true; SUnspool true; SUnspool true; STake; STake; STake; STake;
                    SDeliver; SDeliver; SDeliver; SDeliver; SForget] with
  | Some s => (s_q s, s_spool s, s_keep s, s_slow s, forallb (fun x => memb x (s_recv s)) [1;2;3;4])
  | None => ([], [], [], [], false)
  end = ([], [], [], [], true).
Proof. exact spooling_example. Qed.
