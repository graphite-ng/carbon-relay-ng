(* C02 — only valid metrics are forwarded; every rejection is counted and reported. *)
From CRNG Require Import Base.Bytes Model.Fields Model.Validate Model.Matcher Model.Table Proofs.ValidateProofs Proofs.TableProofs.

(* rejected => counted invalid once, forwarded nowhere (no route, no destination,
   no aggregation), reported under its key with the reason; the order map is untouched *)
Theorem C02_rejected_not_forwarded :
  forall (search : rx -> bytes -> bool) t om buf v s ts e,
    snd (validate_packet buf (t_ll t) (t_lm t) v s) = Some e ->
    let '(om', o) := dispatch search t om buf v s ts in
    om' = om /\ o_invalid o = true /\ o_routes o = [] /\ o_dests o = [] /\ o_agg_consumed o = [] /\
    o_out_of_order o = false /\ o_blacklisted o = false /\ o_unroutable o = false /\
    o_bad o = Some (fst (validate_packet buf (t_ll t) (t_lm t) v s), BadInvalid e).
Proof. exact dispatch_invalid. Qed.
Print Assumptions C02_rejected_not_forwarded.

(* forwarded anywhere => it passed validation (with C01_routes_exact: iff) *)
Theorem C02_forwarded_only_if_valid :
  forall (search : rx -> bytes -> bool) t om buf v s ts,
    let o := snd (dispatch search t om buf v s ts) in
    (o_routes o <> [] \/ o_agg_consumed o <> [] \/ o_dests o <> []) ->
    snd (validate_packet buf (t_ll t) (t_lm t) v s) = None /\ o_invalid o = false.
Proof.
  intros search t om buf v s ts o H.
  destruct (snd (validate_packet buf (t_ll t) (t_lm t) v s)) as [e|] eqn:E.
  - pose proof (dispatch_invalid search t om buf v s ts e E) as D. subst o.
    destruct (dispatch search t om buf v s ts) as [om' o']. simpl in *.
    destruct D as [_ [_ [R [Dd [A _]]]]]. rewrite R, Dd, A in H. destruct H as [H|[H|H]]; contradiction.
  - split; [reflexivity | apply dispatch_valid, E].
Qed.
Print Assumptions C02_forwarded_only_if_valid.

(* valid = three fields, acceptable name at the configured levels, numeric value and timestamp *)
Theorem C02_valid_iff :
  forall buf ll lm v s,
    snd (validate_packet buf ll lm v s) = None <->
    exists f0 f1 f2, fields buf = [f0; f1; f2] /\ key_ok ll lm f0 /\ v = true /\ s = true.
Proof. exact validate_packet_valid_iff. Qed.
Print Assumptions C02_valid_iff.

(* the legacy name rules are the documented grammar: strict = [A-Za-z0-9_.-]* without "..",
   medium = no NUL / 8-bit bytes, tag appendix = (;key=value)+ *)
Theorem C02_name_grammar :
  forall id lv, validate_key_legacy id lv = None <-> name_ok lv id.
Proof. exact validate_key_legacy_grammar. Qed.
Print Assumptions C02_name_grammar.

Theorem C02_tag_appendix_grammar :
  forall s, tag_appendix (S (length s)) s = true <-> appendix_ok s.
Proof. intros s. apply tag_appendix_iff. lia. Qed.
Print Assumptions C02_tag_appendix_grammar.

(* the level names of the configuration file *)
Theorem C02_levels :
  forall t,
    (forall l, parse_level_legacy t = Some l <->
       (t = str_strict /\ l = StrictLegacy) \/ (t = str_medium /\ l = MediumLegacy) \/ (t = str_none /\ l = NoneLegacy)) /\
    (forall l, parse_level_m20 t = Some l <-> (t = str_medium /\ l = MediumM20) \/ (t = str_none /\ l = NoneM20)).
Proof. intros t. split; intros l; [apply parse_level_legacy_spec | apply parse_level_m20_spec]. Qed.
Print Assumptions C02_levels.

(* the report holds, per name, the last rejected record *)
Theorem C02_bad_last_wins :
  forall (R : Type) (l : list (bytes * R)) m k,
    bad_get R (fold_left (fun m kr => bad_add R m (fst kr) (snd kr)) l m) k =
    match last_for R l k with Some r => Some r | None => bad_get R m k end.
Proof. exact bad_last_wins. Qed.
Print Assumptions C02_bad_last_wins.

Example C02_nonvacuous :
  snd (validate_packet [102;111;111;46;98;59;107;61;118;32;49;32;50] StrictLegacy MediumM20 true true) = None /\
  snd (validate_packet [102;111;111;46;46;98;32;49;32;50] StrictLegacy MediumM20 true true) = Some ErrEmptyNode /\
  snd (validate_packet [97;46;102;59;107;61;32;49;32;50] MediumLegacy MediumM20 true true) = Some ErrInvalidTagAppendix.
Proof. vm_compute. auto. Qed.
