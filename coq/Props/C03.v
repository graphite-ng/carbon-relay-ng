(* C03 — filters mean exactly the documented conjunction, evaluated on the metric name. *)
From CRNG Require Import Base.Bytes Lib.Regex Model.Matcher Model.Table Proofs.MatcherProofs Proofs.PrefixSound Proofs.TableProofs.

(* Match = the conjunction of the six documented tests, for every regex oracle
   for which the static prefix derived from the pattern text is sound.  The
   hypothesis is discharged below (C03_match_is_conjunction) for the regex engine
   and every regex passing the boolean check prefix_ok, which the run evaluates
   for every generated regex. *)
Theorem C03_match_is_conjunction_given_sound_prefix :
  forall (search : rx -> bytes -> bool) m s,
    opt_sound search (m_regex m) -> opt_sound search (m_notRegex m) ->
    matcher_match search m s = spec_accept search m s.
Proof. exact match_is_conjunction. Qed.
Print Assumptions C03_match_is_conjunction_given_sound_prefix.

(* Every string that an anchored regex matches starts with the literal prefix read off its syntax tree
   (literals, \., groups; one-or-more and counted repetitions contribute the prefix of their body, anything
   optional or alternative ends it) — by induction over the syntax tree, for the backtracking engine. *)
Theorem C03_ast_prefix_sound :
  forall r s, re_search r s = true -> has_prefix (ast_prefix r) s = true.
Proof. exact ast_prefix_sound. Qed.
Print Assumptions C03_ast_prefix_sound.

(* hence the prefix that regexToPrefix scans from the pattern text is sound whenever it is an initial part of
   the tree's prefix (prefix_ok, a boolean the run evaluates for every regex it generates) ... *)
Theorem C03_text_prefix_sound :
  forall r, prefix_ok r = true ->
    forall s, rx_search r s = true -> has_prefix (regex_to_prefix (rx_src r)) s = true.
Proof. exact text_prefix_sound. Qed.
Print Assumptions C03_text_prefix_sound.

(* ... and Match is exactly the documented conjunction, with no hypothesis left but that boolean *)
Theorem C03_match_is_conjunction :
  forall m s, opt_prefix_ok (m_regex m) = true -> opt_prefix_ok (m_notRegex m) = true ->
    matcher_match rx_search m s = spec_accept rx_search m s.
Proof.
  intros m s H1 H2. apply match_is_conjunction; apply opt_prefix_ok_sound; assumption.
Qed.
Print Assumptions C03_match_is_conjunction.

(* pre-matching never rejects a name the filter accepts *)
Theorem C03_prematch_necessary :
  forall (search : rx -> bytes -> bool) m s,
    opt_sound search (m_regex m) ->
    pre_match m s = false -> spec_accept search m s = false.
Proof. exact prematch_necessary. Qed.
Print Assumptions C03_prematch_necessary.

(* the match cache: in every history of lookups and expiry sweeps (any subset
   of entries deleted at any time) each lookup returns the uncached result *)
Theorem C03_cache_transparent :
  forall (A : Type) (f : bytes -> A) ops c,
    cache_inv A f c -> crun A f c ops = map (spec_out A f) ops.
Proof. intros A f ops c. apply cache_run_transparent. Qed.
Print Assumptions C03_cache_transparent.

(* the sites: destination selection and aggregate routing look at the name only *)
Theorem C03_sites_name_only :
  forall search ds rs l l', name_of l = name_of l' ->
    send_all search ds 0 l = send_all search ds 0 l' /\
    send_first search ds 0 l = send_first search ds 0 l' /\
    map fst (o_routes (dispatch_aggregate search rs l)) = map fst (o_routes (dispatch_aggregate search rs l')).
Proof.
  intros. repeat split; [apply send_all_name_only | apply send_first_name_only | apply aggregate_routes_name_only]; assumption.
Qed.
Print Assumptions C03_sites_name_only.

(* an aggregation takes a point only if its complete filter (all six options) accepts the name *)
Theorem C03_aggregation_filter :
  forall search a name r,
    m_regex (a_matcher a) = Some r ->
    (forall s, search r s = true -> has_prefix (regex_to_prefix (rx_src r)) s = true) ->
    agg_takes search a name = spec_accept search (a_matcher a) name.
Proof. exact agg_takes_spec. Qed.
Print Assumptions C03_aggregation_filter.

(* the shortcut as it was before the repair is unsound: ^ab?c matches "ac",
   which does not start with "ab" (kept so that a revert is recognised) *)
Definition old_prefix_scan_ab_opt_c : bytes := [97; 98].   (* what the old scan returned for ^ab?c *)
Example C03_old_shortcut_refuted :
  rx_search {| rx_src := [94;97;98;63;99]; rx_ast := Cat Bol (Cat (Chr 97) (Cat (Opt true (Chr 98)) (Chr 99))) |} [97; 99] = true
  /\ has_prefix old_prefix_scan_ab_opt_c [97; 99] = false
  /\ has_prefix (regex_to_prefix [94;97;98;63;99]) [97; 99] = true.
Proof. vm_compute. auto. Qed.

Example C03_nonvacuous :
  opt_sound rx_search (Some {| rx_src := [94;97;98]; rx_ast := Cat Bol (Cat (Chr 97) (Chr 98)) |}) -> True.
Proof. auto. Qed.
