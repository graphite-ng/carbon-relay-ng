(* C20 — configuration means what the documentation says, in both syntaxes. *)
From CRNG Require Import Base.Bytes Model.Config Proofs.ConfigProofs.

(* A destination written as "addr opt=value opt=value ..." (the form used by addRoute commands and by the
   destinations = [...] lists of TOML routes): for every set of options in every order the resulting
   settings are the documented defaults updated by exactly those options — none ignored, none swapped. *)
Theorem C20_destination_is_doc :
  forall d, Forall well_typed (snd d) ->
    read_destination (dest_tokens d) = Some (dest_entry d, []) /\
    forall r, read_destination (dest_tokens d ++ TSep :: r) = Some (dest_entry d, r).
Proof. exact read_destination_spec. Qed.
Print Assumptions C20_destination_is_doc.

(* several destinations of one route: every option is applied to its own destination *)
Theorem C20_destinations_not_mixed :
  forall ds fuel, Forall (fun d => Forall well_typed (snd d)) ds -> (length ds < fuel)%nat ->
    read_destinations fuel (dests_tokens ds) = Some (map dest_entry ds).
Proof. exact read_destinations_spec. Qed.
Print Assumptions C20_destinations_not_mixed.

(* interpolation: a text that refers to none of the documented variables is left exactly as it is
   ($1, ${1}, $$, a trailing "${", ... included) *)
Theorem C20_expand_identity :
  forall vars t, (forall n, In n (refs (S (length t)) t) -> kv_get vars n = None) -> expand vars t = t.
Proof. intros vars t. apply expand_identity_any. Qed.
Print Assumptions C20_expand_identity.

(* before the repair (6a5a072) os.Expand made ${1} lose its braces; the repaired interpolation keeps such references *)
Example C20_group_references_kept :
  let vars := [([72;79;83;84], [104])] in
  expand vars [36;123;49;125;97;32;36;49;32;36;36;32;36;123] = [36;123;49;125;97;32;36;49;32;36;36;32;36;123] /\
  expand vars [36;72;79;83;84;46;36;123;72;79;83;84;125;36;72;79;83;84;88] = [104;46;104;36;72;79;83;84;88].
Proof. vm_compute. auto. Qed.
