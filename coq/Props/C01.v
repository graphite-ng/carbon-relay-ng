(* C01 — every accepted metric reaches exactly the matching routes and destinations.
   Statements only; the regex search is an arbitrary function (oracle). *)
From CRNG Require Import Base.Bytes Model.Fields Model.Validate Model.Matcher Model.Rewriter Model.Table Proofs.TableProofs.
Local Open Scope nat_scope.

(* A valid, in-order, non-blacklisted, non-consumed line is handed, with the same
   final text, to exactly the routes whose filter accepts the rewritten name —
   each once, in table order — and inside each such route to exactly what that
   route type selects; it is counted unroutable iff no route accepts it. *)
Theorem C01_routes_exact :
  forall (search : rx -> bytes -> bool) t om buf v s ts f0 f1 f2,
    validate_packet buf (t_ll t) (t_lm t) v s = (strip_dot f0, None) ->
    fields buf = [f0; f1; f2] ->
    (t_order t = true -> snd (ordered om (strip_dot f0) ts) = true) ->
    existsb (fun m => mmatch search m f0) (t_blacklist t) = false ->
    snd (agg_loop search (t_aggs t) 0 (rewrite_all (t_rewriters t) f0)) = false ->
    let name := rewrite_all (t_rewriters t) f0 in
    let final := name ++ [32%N] ++ f1 ++ [32%N] ++ f2 in
    let o := snd (dispatch search t om buf v s ts) in
    o_routes o = map (fun j => (j, final)) (accepting (route_accepts search name) (t_routes t) 0) /\
    o_dests o = flat_map (fun jr => map (fun d => (fst jr, d, final)) (route_dispatch search (snd jr) final))
                         (accepting_el (route_accepts search name) (t_routes t) 0) /\
    (o_unroutable o = true <-> accepting (route_accepts search name) (t_routes t) 0 = []) /\
    o_invalid o = false /\ o_out_of_order o = false /\ o_blacklisted o = false /\ o_bad o = None.
Proof. exact dispatch_routes_exact. Qed.
Print Assumptions C01_routes_exact.

(* "exactly once": the list of accepting indices has no duplicates and contains
   precisely the indices of accepting entries *)
Theorem C01_exactly_once :
  forall A (f : A -> bool) l j,
    NoDup (accepting f l 0) /\
    (In j (accepting f l 0) <-> exists x, nth_error l j = Some x /\ f x = true).
Proof. intros A f l j. split; [apply accepting_nodup | apply accepting_0]. Qed.
Print Assumptions C01_exactly_once.

Theorem C01_blacklisted :
  forall (search : rx -> bytes -> bool) t om buf v s ts f0 f1 f2,
    validate_packet buf (t_ll t) (t_lm t) v s = (strip_dot f0, None) ->
    fields buf = [f0; f1; f2] ->
    (t_order t = true -> snd (ordered om (strip_dot f0) ts) = true) ->
    existsb (fun m => mmatch search m f0) (t_blacklist t) = true ->
    let o := snd (dispatch search t om buf v s ts) in
    o_blacklisted o = true /\ o_routes o = [] /\ o_dests o = [] /\ o_agg_consumed o = [] /\
    o_unroutable o = false /\ o_invalid o = false /\ o_bad o = None.
Proof. exact dispatch_blacklisted. Qed.
Print Assumptions C01_blacklisted.

(* send-all-match: every accepting destination; send-first-match: the first one only *)
Theorem C01_send_all :
  forall search ds line,
    send_all search ds 0 line = accepting (fun d => mmatch search (d_matcher d) (name_of line)) ds 0.
Proof. intros; apply send_all_spec. Qed.
Print Assumptions C01_send_all.

Theorem C01_send_first :
  forall search ds line,
    send_first search ds 0 line = firstn 1 (accepting (fun d => mmatch search (d_matcher d) (name_of line)) ds 0).
Proof. intros; apply send_first_spec. Qed.
Print Assumptions C01_send_first.

Theorem C01_hashing_at_most_one :
  forall ds line, length (send_hash ds line) <= 1.
Proof. exact send_hash_at_most_one. Qed.
Print Assumptions C01_hashing_at_most_one.
